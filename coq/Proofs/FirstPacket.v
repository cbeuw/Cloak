(* Proofs about Model/FirstPacket.v (readFirstPacket, connReadLine, relay). *)
From Coq Require Import NArith ZArith List Bool Arith Lia.
From Coq Require Import ZifyN ZifyNat ZifyBool.
From Cloak Require Import Gen.Consts Model.Hello Model.FirstPacket Proofs.ListFacts Proofs.Hello.
Import ListNotations.
Local Open Scope N_scope.

Lemma fps_ge_5 : (5 <= fps)%nat.
Proof. unfold fps, server_firstPacketSize. lia. Qed.

Lemma read_full_seg_eq : forall chunks n,
  let '(d, rest, ok) := read_full_seg n chunks in
  read_full n (concat chunks) = (d, concat rest, ok).
Proof.
  unfold read_full. induction chunks as [|c cs IH]; intros [|n']; try reflexivity.
  cbn [read_full_seg concat]. rewrite firstn_app, skipn_app, app_length.
  destruct (Nat.leb_spec (length c) (S n')) as [Hle|Hgt].
  - remember (S n' - length c)%nat as m eqn:Hm. specialize (IH m). destruct (read_full_seg m cs) as [[d rest] ok].
    injection IH as <- <- <-. rewrite (firstn_all2 c), (skipn_all2 c) by lia. cbn [app]. f_equal.
    apply eq_true_iff_eq. rewrite !Nat.leb_le. lia.
  - replace (S n' - length c)%nat with 0%nat by lia. cbn [firstn skipn concat]. rewrite app_nil_r.
    f_equal. apply Nat.leb_le. lia.
Qed.

Lemma read_line_spec : forall room conn l c st,
  read_line room conn = (l, c, st) ->
  conn = l ++ c /\ (length l <= room)%nat /\
  match st with
  | LOk => exists body, l = body ++ [10] /\ ~ In 10 body
  | LShort => length l = room /\ ~ In 10 l
  | LErr => c = [] /\ ~ In 10 l /\ (length l < room)%nat
  end.
Proof.
  induction room as [|room IH]; intros conn l c st H.
  - cbn in H. inversion H; subst. cbn. auto.
  - cbn [read_line] in H. destruct conn as [|b conn'].
    + inversion H; subst. cbn. repeat split; auto; lia.
    + destruct (b =? 10) eqn:Hb.
      * apply N.eqb_eq in Hb. inversion H; subst. cbn. repeat split; try lia.
        exists []. auto.
      * apply N.eqb_neq in Hb.
        destruct (read_line room conn') as [[l' c'] st'] eqn:Hr.
        inversion H; subst. specialize (IH _ _ _ _ Hr). destruct IH as (Hc & Hl & Hs).
        subst conn'. cbn [app length]. repeat split; try lia.
        destruct st.
        -- destruct Hs as (body & -> & Hn). exists (b :: body). split; auto.
           intros [E|E]; [congruence | auto].
        -- destruct Hs as (Hlen & Hn). split; [lia|]. intros [E|E]; [congruence|auto].
        -- destruct Hs as (-> & Hn & Hlt). repeat split; auto; try lia.
           intros [E|E]; [congruence|auto].
Qed.

(* a well-formed line is read back when there is room for it *)
Lemma read_line_line : forall body rest room,
  ~ In 10 body -> (length body < room)%nat ->
  read_line room ((body ++ [10]) ++ rest) = (body ++ [10], rest, LOk).
Proof.
  induction body as [|b body IH]; intros rest room Hn Hroom.
  - destruct room; [cbn in Hroom; lia|]. cbn. reflexivity.
  - destruct room; [cbn in Hroom; lia|].
    cbn [app read_line].
    destruct (b =? 10) eqn:Hb.
    + apply N.eqb_eq in Hb. exfalso. apply Hn. left. auto.
    + rewrite IH.
      * reflexivity.
      * intros E. apply Hn. right. auto.
      * cbn in Hroom. lia.
Qed.

Definition is_line (l : list N) : Prop := exists body, l = body ++ [10] /\ ~ In 10 body.
Definition head_line (l : list N) : Prop := is_line l /\ l <> [CR; LF].

(* a complete request head that fits the buffer: 'G', lines, then the empty line *)
Definition http_complete (bsz : nat) (s : list N) : Prop :=
  exists lines tail, s = 0x47 :: concat lines ++ [CR; LF] ++ tail /\ Forall head_line lines
                     /\ (1 + length (concat lines) + 2 <= bsz)%nat.
(* a request whose head does not end within the buffer *)
Definition http_overlong (bsz : nat) (s : list N) : Prop :=
  exists u, s = 0x47 :: u /\ (bsz <= length s)%nat /\ ~ http_complete bsz s.
Definition tls_complete (bsz : nat) (s : list N) : Prop :=
  exists t1 t2 hi lo body tail, s = 0x16 :: t1 :: t2 :: hi :: lo :: body ++ tail
    /\ N.of_nat (length body) = hi * 256 + lo /\ hi * 256 + lo + 5 <= N.of_nat bsz.
Definition tls_oversize (bsz : nat) (s : list N) : Prop :=
  exists t1 t2 hi lo tail, s = 0x16 :: t1 :: t2 :: hi :: lo :: tail /\ N.of_nat bsz < hi * 256 + lo + 5.
Definition unrecognised (s : list N) : Prop :=
  exists b t, s = b :: t /\ b <> 0x16 /\ b <> 0x47.

(* "the peer has sent a complete first record or request, or something unrecognisable" *)
Definition sent_enough (bsz : nat) (s : list N) : Prop :=
  tls_complete bsz s \/ tls_oversize bsz s \/ http_complete bsz s \/ http_overlong bsz s \/ unrecognised s.

Lemma first_line_unique : forall body body0 rest rest0,
  ~ In 10 body -> ~ In 10 body0 ->
  (body ++ [10]) ++ rest = (body0 ++ [10]) ++ rest0 -> body = body0 /\ rest = rest0.
Proof.
  induction body as [|b body IH]; intros [|c body0] rest rest0 Hb Hb0 H; cbn in H; inversion H; subst.
  - auto.
  - exfalso. apply Hb0. left. reflexivity.
  - exfalso. apply Hb. left. reflexivity.
  - destruct (IH body0 rest rest0) as [-> ->]; auto; intros Hin; [apply Hb | apply Hb0]; right; exact Hin.
Qed.

Lemma crlf_is_line : [CR; LF] = [CR] ++ [10] /\ ~ In 10 [CR].
Proof. split; [reflexivity|]. unfold CR. cbn. intros [E|[]]. discriminate. Qed.

(* the rest of a request after its first byte: header lines, the blank line, whatever follows *)
Definition head_of (conn : list N) (lines : list (list N)) (tail : list N) : Prop :=
  conn = concat lines ++ [CR; LF] ++ tail /\ Forall head_line lines.

(* ... ending within a buffer of bsz bytes of which n are taken *)
Definition head_fits (bsz n : nat) (conn : list N) : Prop :=
  exists lines tail, head_of conn lines tail /\ (n + length (concat lines) + 2 <= bsz)%nat.

(* if the stream begins with a line that is not the blank line, every decomposition into head lines
   followed by the blank line begins with that very line *)
Lemma head_decomp_step : forall body conn' lines tail,
  ~ In 10 body -> body ++ [10] <> [CR; LF] -> head_of ((body ++ [10]) ++ conn') lines tail ->
  exists lines', lines = (body ++ [10]) :: lines' /\ head_of conn' lines' tail.
Proof.
  intros body conn' lines tail Hnb Hne [H Hf].
  destruct lines as [|l0 lines'].
  - exfalso. cbn [concat app] in H.
    destruct crlf_is_line as [Hcl Hcn].
    change (CR :: LF :: tail) with ([CR; LF] ++ tail) in H. rewrite Hcl in H.
    destruct (first_line_unique _ _ _ _ Hnb Hcn H) as [E1 E2].
    apply Hne. rewrite E1. reflexivity.
  - inversion Hf as [|? ? Hl0 Hf' [Ea Eb]].
    destruct Hl0 as ((body0 & Hl0 & Hnb0) & Hne0).
    cbn [concat] in H. rewrite Hl0 in H. rewrite <- (app_assoc (body0 ++ [10])) in H.
    destruct (first_line_unique _ _ _ _ Hnb Hnb0 H) as [E1 E2].
    exists lines'. rewrite Hl0, E1. split; [reflexivity | split; assumption].
Qed.

Lemma in_shorter_prefix : forall (pre line tail rest : list N) x,
  pre ++ tail = line ++ rest -> (length pre <= length line)%nat -> In x pre -> In x line.
Proof.
  induction pre as [|p pre IH]; intros line tail rest x E L Hin; [destruct Hin|].
  destruct line as [|a line]; [cbn in L; lia|]. inversion E as [[Ea Er]].
  destruct Hin as [<-|Hin]; [left; symmetry; exact Ea | right]. apply (IH line tail rest); auto. cbn in L. lia.
Qed.

(* The loop reads buf ++ got, leaves rest, and ends in one of three ways: at the blank line; with the buffer full
   and no request head ending inside it; or at the end of a stream that holds no request head. *)
Lemma ws_loop_spec : forall fuel bsz e buf n conn,
  (bsz < fuel + n)%nat -> n = length buf -> (n <= bsz)%nat ->
  let r := ws_loop fuel bsz e buf n conn in
  (exists lines tail, head_of conn lines tail /\ (n + length (concat lines) + 2 <= bsz)%nat /\
      let b := buf ++ concat lines ++ [CR; LF] in r = mkR b (length b) tail TWS true RNone false)
  \/ (exists got rest, conn = got ++ rest /\ length (buf ++ got) = bsz /\
        r = mkR (buf ++ got) (length (buf ++ got)) rest TWS true RShortBuffer false /\ ~ head_fits bsz n conn)
  \/ ((length (buf ++ conn) < bsz)%nat /\
        r = mkR (buf ++ conn) (length (buf ++ conn)) [] TWS false (RRead e) true /\ ~ head_fits bsz n conn).
Proof.
  induction fuel as [|fuel IH]; intros bsz e buf n conn Hfuel Hn Hle; [exfalso; lia|].
  cbn [ws_loop].
  destruct (read_line (bsz - n) conn) as [[line conn'] st] eqn:Hrl.
  pose proof (read_line_spec _ _ _ _ _ Hrl) as (Hconn & Hlen & Hst).
  assert (Hn' : (n + length line)%nat = length (buf ++ line)) by (rewrite app_length; lia).
  rewrite Hn'. destruct st.
  - destruct Hst as (body & Hline & Hnb).
    destruct (bytes_eqb line [CR; LF]) eqn:Hcr.
    + (* the blank line *)
      apply bytes_eqb_iff in Hcr. left. exists [], conn'. rewrite Hcr in *. subst conn. cbn in Hlen.
      split; [split; [reflexivity | constructor]|]. split; [cbn; lia | reflexivity].
    + (* another header line *)
      assert (line <> [CR; LF]) as Hne by (intros E; apply bytes_eqb_iff in E; congruence).
      assert (1 <= length line)%nat as Hpos by (rewrite Hline, app_length; cbn; lia).
      assert (Hneg : ~ head_fits bsz (length (buf ++ line)) conn' -> ~ head_fits bsz n conn).
      { intros Hno (lines & tail & Hh & Hfit). apply Hno. rewrite Hconn, Hline in Hh. rewrite Hline in Hne.
        destruct (head_decomp_step _ _ _ _ Hnb Hne Hh) as (lines' & -> & Hh').
        exists lines', tail. split; [exact Hh'|]. cbn [concat] in Hfit. rewrite <- Hline, app_length in Hfit. rewrite app_length. lia. }
      destruct (IH bsz e (buf ++ line) (length (buf ++ line)) conn') as [H|[H|H]]; try lia; try reflexivity.
      * left. destruct H as (lines & tail & [Hc Hf] & Hfit & E). exists (line :: lines), tail.
        cbn [concat]. rewrite app_length. split; [split|split; [lia|]].
        -- cbn [concat]. rewrite Hconn, Hc, <- app_assoc. reflexivity.
        -- constructor; [split; [exists body; auto | exact Hne] | exact Hf].
        -- cbv zeta in E |- *. rewrite <- !app_assoc in E |- *. exact E.
      * right; left. destruct H as (got & rest & Hc & Hfull & E & Hno). exists (line ++ got), rest.
        rewrite app_assoc. split; [rewrite Hconn, Hc, app_assoc; reflexivity|]. split; [exact Hfull|]. split; [exact E | exact (Hneg Hno)].
      * right; right. destruct H as (Hlt & E & Hno). rewrite Hconn, app_assoc. split; [exact Hlt|]. split; [exact E|].
        rewrite <- Hconn. exact (Hneg Hno).
  - (* the buffer is full; a head ending inside it would put its LF into `line` *)
    destruct Hst as (Hroom & Hnl). right; left. exists line, conn'.
    split; [exact Hconn|]. split; [rewrite app_length; lia|]. split; [reflexivity|].
    intros (lines & tail & [Hc Hf] & Hfit). apply Hnl.
    rewrite Hconn, app_assoc in Hc. symmetry in Hc.
    apply (in_shorter_prefix _ _ _ _ 10 Hc); [rewrite app_length; cbn; lia|].
    apply in_or_app. right. right. left. reflexivity.
  - (* the stream ended inside a line *)
    destruct Hst as (-> & Hnl & Hlt). right; right. rewrite app_nil_r in Hconn. subst line.
    split; [rewrite app_length; lia|]. split; [reflexivity|].
    intros (lines & tail & [Hc Hf] & _). apply Hnl. rewrite Hc. apply in_or_app. right. right. left. reflexivity.
Qed.

Lemma read_full_enough : forall a b, read_full (length a) (a ++ b) = (a, b, true).
Proof.
  intros a b. unfold read_full. rewrite firstn_app_exact, skipn_app_exact, app_length by reflexivity.
  f_equal. apply Nat.leb_le. lia.
Qed.
Lemma read_full_short : forall n l, (length l < n)%nat -> read_full n l = (l, [], false).
Proof.
  intros n l H. unfold read_full. rewrite firstn_all2, skipn_all2 by lia. f_equal. apply Nat.leb_gt. exact H.
Qed.

Lemma rfp_unrecognised : forall bsz b t e, b <> 0x16 -> b <> 0x47 ->
  rfp_gen bsz (b :: t) e = mkR [b] 1 t TNone true RUnrecognised false.
Proof.
  intros bsz b t e H16 H47. unfold rfp_gen, read_full. cbn [firstn skipn length Nat.leb negb nth].
  apply N.eqb_neq in H16, H47. rewrite H16, H47. reflexivity.
Qed.

Lemma rfp_ws : forall bsz t e, rfp_gen bsz (0x47 :: t) e = ws_loop (S bsz) bsz e [0x47] 1 t.
Proof. reflexivity. Qed.

Lemma rfp_tls_short : forall bsz t e, (length t < 4)%nat ->
  rfp_gen bsz (0x16 :: t) e = mkR (0x16 :: t) (length (0x16 :: t)) [] TTLS false (RRead e) true.
Proof.
  intros bsz t e H. unfold rfp_gen. change (read_full 1 (0x16 :: t)) with ([0x16], t, true).
  cbn [negb nth N.eqb Pos.eqb]. rewrite read_full_short by exact H. reflexivity.
Qed.

(* with the 5-byte header read: the length check, then the body *)
Lemma rfp_tls : forall bsz t1 t2 hi lo rest e,
  rfp_gen bsz (0x16 :: t1 :: t2 :: hi :: lo :: rest) e =
  if N.of_nat bsz <? hi * 256 + lo + 5 then mkR [0x16; t1; t2; hi; lo] 5 rest TTLS true RShortBuffer false
  else let '(body, rest', ok) := read_full (N.to_nat (hi * 256 + lo)) rest in
       mkR (0x16 :: t1 :: t2 :: hi :: lo :: body) (5 + length body) rest' TTLS ok (if ok then RNone else RRead e) (negb ok).
Proof.
  intros. unfold rfp_gen.
  change (read_full 1 (0x16 :: t1 :: t2 :: hi :: lo :: rest)) with ([0x16], t1 :: t2 :: hi :: lo :: rest, true).
  cbn [negb nth N.eqb Pos.eqb].
  change (read_full 4 (t1 :: t2 :: hi :: lo :: rest)) with ([t1; t2; hi; lo], rest, true).
  cbn [negb app firstn skipn length Nat.add]. rewrite be_val_2.
  destruct (N.of_nat bsz <? hi * 256 + lo + 5); [reflexivity|].
  destruct (read_full (N.to_nat (hi * 256 + lo)) rest) as [[body rest'] ok]. destruct ok; reflexivity.
Qed.

Lemma rfp_tls_oversize : forall bsz t1 t2 hi lo rest e, N.of_nat bsz < hi * 256 + lo + 5 ->
  rfp_gen bsz (0x16 :: t1 :: t2 :: hi :: lo :: rest) e = mkR [0x16; t1; t2; hi; lo] 5 rest TTLS true RShortBuffer false.
Proof. intros bsz t1 t2 hi lo rest e H. rewrite rfp_tls. apply N.ltb_lt in H. rewrite H. reflexivity. Qed.

Lemma rfp_tls_complete : forall bsz t1 t2 hi lo body tail e,
  N.of_nat (length body) = hi * 256 + lo -> hi * 256 + lo + 5 <= N.of_nat bsz ->
  rfp_gen bsz (0x16 :: t1 :: t2 :: hi :: lo :: body ++ tail) e =
  mkR (0x16 :: t1 :: t2 :: hi :: lo :: body) (5 + length body) tail TTLS true RNone false.
Proof.
  intros bsz t1 t2 hi lo body tail e L F. rewrite rfp_tls. apply N.ltb_ge in F. rewrite F.
  replace (N.to_nat (hi * 256 + lo)) with (length body) by lia. rewrite read_full_enough. reflexivity.
Qed.

Lemma rfp_tls_truncated : forall bsz t1 t2 hi lo rest e,
  hi * 256 + lo + 5 <= N.of_nat bsz -> (length rest < N.to_nat (hi * 256 + lo))%nat ->
  rfp_gen bsz (0x16 :: t1 :: t2 :: hi :: lo :: rest) e =
  mkR (0x16 :: t1 :: t2 :: hi :: lo :: rest) (5 + length rest) [] TTLS false (RRead e) true.
Proof.
  intros bsz t1 t2 hi lo rest e F H. rewrite rfp_tls. apply N.ltb_ge in F. rewrite F.
  rewrite read_full_short by exact H. reflexivity.
Qed.

Lemma http_complete_head : forall bsz t, http_complete bsz (0x47 :: t) <-> head_fits bsz 1 t.
Proof.
  intros bsz t. split; intros (lines & tail & H).
  - destruct H as (Es & Hf & Hfit). inversion Es. exists lines, tail. repeat split; auto.
  - destruct H as ([-> Hf] & Hfit). exists lines, tail. auto.
Qed.

Lemma sent_enough_inv : forall bsz s, sent_enough bsz s ->
  match s with
  | [] => False
  | b :: _ => (b = 0x16 /\ (tls_complete bsz s \/ tls_oversize bsz s))
              \/ (b = 0x47 /\ (http_complete bsz s \/ (bsz <= length s)%nat))
              \/ (b <> 0x16 /\ b <> 0x47)
  end.
Proof.
  intros bsz s [H|[H|[H|[H|H]]]].
  - pose proof H as (? & ? & ? & ? & ? & ? & -> & _). left. auto.
  - pose proof H as (? & ? & ? & ? & ? & -> & _). left. auto.
  - pose proof H as (? & ? & -> & _). right; left. auto.
  - destruct H as (? & -> & L & _). right; left. auto.
  - destruct H as (? & ? & -> & ?). right; right. assumption.
Qed.

Lemma not_enough_short16 : forall bsz s, (length s < 5)%nat -> (exists t, s = 0x16 :: t) -> ~ sent_enough bsz s.
Proof.
  intros bsz s Hlen (t & ->) H. apply sent_enough_inv in H as [[_ [H|H]]|[[H _]|[H _]]]; try congruence.
  - destruct H as (? & ? & ? & ? & ? & ? & E & _). rewrite E in Hlen. cbn in Hlen. lia.
  - destruct H as (? & ? & ? & ? & ? & E & _). rewrite E in Hlen. cbn in Hlen. lia.
Qed.

(* readFirstPacket splits the stream into what it buffered and what it left unread, never more than the buffer holds;
   it asks for the redirect exactly when the peer has sent enough, and otherwise has read everything and closes *)
Theorem rfp_outcome : forall bsz s e, (5 <= bsz)%nat ->
  exists buf rest tr err redir,
    s = buf ++ rest /\ (length buf <= bsz)%nat /\ err <> RFuel /\
    rfp_gen bsz s e = mkR buf (length buf) rest tr redir err (negb redir) /\
    if redir then sent_enough bsz s else ~ sent_enough bsz s /\ rest = [] /\ err = RRead e.
Proof.
  intros bsz s e Hbsz. destruct s as [|b t].
  { exists [], [], TNone, (RRead e), false. repeat split; try discriminate; try (cbn; lia). intros H. exact (sent_enough_inv _ _ H). }
  destruct (N.eq_dec b 0x16) as [->|H16]; [|destruct (N.eq_dec b 0x47) as [->|H47]].
  - destruct (Nat.lt_ge_cases (length t) 4) as [Hs|Hl].
    { exists (0x16 :: t), [], TTLS, (RRead e), false. rewrite app_nil_r, rfp_tls_short by exact Hs.
      repeat split; try discriminate; try (cbn [length]; lia). apply not_enough_short16; [cbn [length]; lia | eauto]. }
    destruct t as [|t1 [|t2 [|hi [|lo rest]]]]; try (cbn in Hl; lia). clear Hl.
    destruct (N.lt_ge_cases (N.of_nat bsz) (hi * 256 + lo + 5)) as [Hbig|Hfit].
    { exists [0x16; t1; t2; hi; lo], rest, TTLS, RShortBuffer, true. rewrite rfp_tls_oversize by exact Hbig.
      repeat split; try discriminate; try (cbn [length]; lia). right; left. exists t1, t2, hi, lo, rest. auto. }
    destruct (Nat.le_gt_cases (N.to_nat (hi * 256 + lo)) (length rest)) as [Hbody|Hcut].
    + rewrite <- (firstn_skipn (N.to_nat (hi * 256 + lo)) rest).
      assert (L : N.of_nat (length (firstn (N.to_nat (hi * 256 + lo)) rest)) = hi * 256 + lo) by (rewrite firstn_length; lia).
      set (body := firstn _ rest) in *. set (tail := skipn _ rest).
      exists (0x16 :: t1 :: t2 :: hi :: lo :: body), tail, TTLS, RNone, true. rewrite rfp_tls_complete by assumption.
      repeat split; try discriminate; try (cbn [length]; lia). left. exists t1, t2, hi, lo, body, tail. auto.
    + exists (0x16 :: t1 :: t2 :: hi :: lo :: rest), [], TTLS, (RRead e), false.
      rewrite app_nil_r, rfp_tls_truncated by assumption.
      repeat split; try discriminate; try (cbn [length]; lia).
      intros H. apply sent_enough_inv in H as [[_ [H|H]]|[[H _]|[H _]]]; try congruence.
      * destruct H as (? & ? & ? & ? & body & tail & E & L & _). inversion E; subst. rewrite app_length in Hcut. lia.
      * destruct H as (? & ? & ? & ? & ? & E & Hov). inversion E; subst. lia.
  - rewrite rfp_ws.
    destruct (ws_loop_spec (S bsz) bsz e [0x47] 1 t) as [H|[H|H]]; try reflexivity; try lia; cbv zeta in H.
    + destruct H as (lines & tail & [Hc Hf] & Hfit & E).
      exists ([0x47] ++ concat lines ++ [CR; LF]), tail, TWS, RNone, true. rewrite Hc at 1. rewrite <- !app_assoc.
      repeat split; try discriminate; try exact E. { rewrite !app_length. cbn [length]. lia. }
      do 2 right; left. apply http_complete_head. exists lines, tail. repeat split; auto.
    + destruct H as (got & rest & Hc & Hfull & E & Hno). rewrite app_length in Hfull. cbn [length] in Hfull.
      exists ([0x47] ++ got), rest, TWS, RShortBuffer, true. rewrite Hc at 1.
      repeat split; try discriminate; try exact E; try (rewrite app_length; cbn [length]; lia).
      do 3 right; left. exists t. split; [reflexivity|]. split; [rewrite Hc; cbn [length]; rewrite app_length; lia|].
      intros H. apply Hno. apply http_complete_head. exact H.
    + destruct H as (Hlt & E & Hno). exists ([0x47] ++ t), [], TWS, (RRead e), false. rewrite app_nil_r.
      repeat split; try discriminate; try exact E; try lia.
      intros H. apply sent_enough_inv in H as [[H _]|[[_ [H|H]]|[_ H]]]; try congruence.
      * apply Hno. apply http_complete_head. exact H.
      * cbn [app length] in *. lia.
  - exists [b], t, TNone, RUnrecognised, true. rewrite rfp_unrecognised by assumption.
    repeat split; try discriminate; try (cbn [length]; lia). do 4 right. exists b, t. auto.
Qed.

Lemma split_at_length : forall buf rest tr rd err cl, let r := mkR buf (length buf) rest tr rd err cl in
  r_buf r = firstn (r_n r) (buf ++ rest) /\ r_rest r = skipn (r_n r) (buf ++ rest) /\ first_data r = r_buf r
  /\ nth_error (r_rest r) 0 = nth_error (buf ++ rest) (r_n r).
Proof.
  intros. subst r. unfold first_data. cbn [r_buf r_n r_rest].
  rewrite !firstn_app_exact, skipn_app_exact, nth_error_app2, Nat.sub_diag by lia.
  destruct rest; auto.
Qed.

Lemma consumed_exact : forall bsz s e, (5 <= bsz)%nat ->
  let r := rfp_gen bsz s e in
  r_buf r = firstn (r_n r) s /\ r_rest r = skipn (r_n r) s /\ first_data r = firstn (r_n r) s
  /\ nth_error (r_rest r) 0 = nth_error s (r_n r)
  /\ (r_n r <= bsz)%nat /\ (r_n r <= length s)%nat /\ r_err r <> RFuel.
Proof.
  intros bsz s e Hb r. subst r. destruct (rfp_outcome bsz s e Hb) as (buf & rest & tr & err & rd & -> & Hle & Hf & -> & _).
  destruct (split_at_length buf rest tr rd err (negb rd)) as (A & B & C & D). cbv zeta in *.
  rewrite C, <- A. repeat split; auto. cbn [r_n]. rewrite app_length. lia.
Qed.

Lemma relay_all : forall bsz s e, (5 <= bsz)%nat -> relay (rfp_gen bsz s e) = s.
Proof.
  intros bsz s e Hb. destruct (consumed_exact bsz s e Hb) as (_ & B & C & _). cbv zeta in *.
  unfold relay. rewrite B, C. apply firstn_skipn.
Qed.

Lemma target_gets_everything : forall bsz s e, (5 <= bsz)%nat ->
  let r := rfp_gen bsz s e in
  (sent_enough bsz s -> r_redir r = true /\ r_closed r = false /\ relay r = s) /\
  (~ sent_enough bsz s -> r_redir r = false /\ r_closed r = true /\ r_err r = RRead e /\ r_n r = length s).
Proof.
  intros bsz s e Hb r. pose proof (relay_all bsz s e Hb) as Hrelay. fold r in Hrelay.
  destruct (rfp_outcome bsz s e Hb) as (buf & rest & tr & err & rd & Es & _ & _ & E & Hrd). fold r in E. rewrite E in Hrelay |- *.
  destruct rd; cbn [r_redir r_closed r_err r_n negb].
  - split; [auto | contradiction].
  - destruct Hrd as (Hn & -> & ->). split; [contradiction|]. rewrite Es, app_nil_r. auto.
Qed.

Lemma class_details : forall bsz s e,
  let r := rfp_gen bsz s e in
  (tls_oversize bsz s -> r_err r = RShortBuffer /\ r_n r = 5%nat) /\
  (unrecognised s -> r_err r = RUnrecognised /\ r_n r = 1%nat) /\
  (forall t1 t2 hi lo body tail, s = 0x16 :: t1 :: t2 :: hi :: lo :: body ++ tail ->
     N.of_nat (length body) = hi * 256 + lo -> hi * 256 + lo + 5 <= N.of_nat bsz ->
     r_err r = RNone /\ first_data r = 0x16 :: t1 :: t2 :: hi :: lo :: body /\ r_rest r = tail).
Proof.
  intros bsz s e r. subst r. split; [|split].
  - intros (t1 & t2 & hi & lo & tail & -> & Hov). rewrite rfp_tls_oversize by exact Hov. auto.
  - intros (b & t & -> & H16 & H47). rewrite rfp_unrecognised by assumption. auto.
  - intros t1 t2 hi lo body tail -> L F. rewrite rfp_tls_complete by assumption.
    destruct (split_at_length (0x16 :: t1 :: t2 :: hi :: lo :: body) tail TTLS true RNone false) as (_ & _ & C & _). auto.
Qed.

(* satisfiability of the hypotheses: a 3-byte record, a request, a peer that stalls inside the record header *)
Example ex_tls_complete : tls_complete 3000 [0x16; 3; 1; 0; 3; 7; 8; 9; 42].
Proof. exists 3, 1, 0, 3, [7; 8; 9], [42]. repeat split; try reflexivity. lia. Qed.
Example ex_http_complete : http_complete 3000 ([0x47; 69; 84; 10] ++ [CR; LF] ++ [1; 2]).
Proof.
  exists [[69; 84; 10]], [1; 2]. repeat split; cbn; try lia.
  constructor; [|constructor]. split.
  - exists [69; 84]. split; [reflexivity|]. cbn. intros [E|[E|[]]]; discriminate.
  - unfold CR, LF. discriminate.
Qed.
Example ex_early : ~ sent_enough 3000 [0x16; 3; 1; 0].
Proof. apply not_enough_short16; [cbn; lia | eauto]. Qed.
