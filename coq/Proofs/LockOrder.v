(* Generated obligations of C17 / C15 / C16: theorems ABOUT THE GENERATED TERMS Gen/LockGraph.v
   and Gen/Guards.v, which tools/lockscan extracts from /repo's working tree on every run.
   A source edit that adds a lock-order edge closing a cycle, acquires the bookkeeping locks in
   an order different from the hand model's, or drops a lock around an access of the session
   table / the usage queue / the user table breaks one of the proofs below on the next run. *)
From Coq Require Import String List Bool Arith Lia.
From Cloak Require Import Gen.LockGraph Gen.Guards.
Import ListNotations.
Local Open Scope string_scope.

(* ------------------------------------------------------------------ acyclicity *)
Section Graph.
Variable es : list (string * string).

Inductive path : string -> string -> Prop :=
| path1 : forall a b, In (a, b) es -> path a b
| pathS : forall a b c, In (a, b) es -> path b c -> path a c.

Definition acyclic : Prop := forall x, ~ path x x.

(* a rank that strictly increases along every edge is a certificate *)
Definition ranked (rk : string -> nat) : bool :=
  forallb (fun e => Nat.ltb (rk (fst e)) (rk (snd e))) es.

Lemma ranked_edge : forall rk, ranked rk = true -> forall a b, In (a, b) es -> rk a < rk b.
Proof.
  intros rk H a b Hin. unfold ranked in H. rewrite forallb_forall in H. apply Nat.ltb_lt, (H _ Hin).
Qed.

Lemma ranked_acyclic : forall rk, ranked rk = true -> acyclic.
Proof.
  intros rk H x P. enough (L : forall a b, path a b -> rk a < rk b) by (specialize (L x x P); lia).
  induction 1 as [a b Hin | a b c Hin _ IH]; [|apply Nat.lt_trans with (rk b); [|exact IH]];
    apply (ranked_edge rk H), Hin.
Qed.

(* the certificate is computed: longest-path layering, |es| rounds *)
Definition relax (rk : string -> nat) : string -> nat :=
  fun x => fold_left (fun m e => if String.eqb (snd e) x then Nat.max m (S (rk (fst e))) else m) es 0.
Fixpoint layers (n : nat) : string -> nat :=
  match n with O => fun _ => 0 | S m => relax (layers m) end.
Definition acyclic_check : bool := ranked (layers (S (length es))).

Lemma acyclic_check_sound : acyclic_check = true -> acyclic.
Proof. apply ranked_acyclic. Qed.
End Graph.

Lemma lockscan_understood_everything : lockscan_errors = [].
Proof. reflexivity. Qed.

Lemma server_lock_graph_acyclic : acyclic server_lock_edges.
Proof. apply acyclic_check_sound. vm_compute. reflexivity. Qed.

Lemma multiplex_lock_graph_acyclic : acyclic multiplex_lock_edges.
Proof. apply acyclic_check_sound. vm_compute. reflexivity. Qed.

(* A numbering in which the hand model acquires upwards (Proofs/PanelLocks.v proves, for the model,
   that only a holder of usageUpdateQueueM asks for another lock: activeUsersM or sessionsM; the
   order of those two among themselves is not used).  Every edge lockscan found in the code must
   go upwards in it too. *)
Definition model_rank (m : string) : nat :=
  if String.eqb m "userPanel.usageUpdateQueueM" then 0
  else if String.eqb m "userPanel.activeUsersM" then 1
  else if String.eqb m "ActiveUser.sessionsM" then 2
  else 3.

Lemma server_edges_follow_model_order :
  forall a b, In (a, b) server_lock_edges -> model_rank a < model_rank b.
Proof.
  apply (ranked_edge server_lock_edges model_rank). vm_compute. reflexivity.
Qed.

(* the three lock names that model_rank and the lemmas below spell out are mutexes the scan found
   in the package: a renamed lock breaks this proof *)
Lemma bookkeeping_locks_exist :
  In "userPanel.usageUpdateQueueM" server_mutexes /\ In "userPanel.activeUsersM" server_mutexes
  /\ In "ActiveUser.sessionsM" server_mutexes.
Proof. vm_compute. tauto. Qed.

(* ------------------------------------------------------------------ guarded-by *)
Definition mem_str (x : string) (l : list string) : bool := existsb (String.eqb x) l.

(* every access of variable v happens with lock m held, and there is at least one access
   (so that renaming the variable cannot make the obligation vacuous) *)
Definition guarded_check (v m : string) : bool :=
  forallb (fun g => match g with (v', _, ls) => if String.eqb v' v then mem_str m ls else true end) guards
  && existsb (fun g => match g with (v', _, _) => String.eqb v' v end) guards.

Definition guarded (v m : string) : Prop :=
  (forall f ls, In (v, f, ls) guards -> In m ls) /\ (exists f ls, In (v, f, ls) guards).

Lemma guarded_check_sound : forall v m, guarded_check v m = true -> guarded v m.
Proof.
  intros v m H. apply andb_prop in H. destruct H as [H1 H2]. split.
  - intros f ls Hin. rewrite forallb_forall in H1. specialize (H1 _ Hin). cbn in H1.
    rewrite String.eqb_refl in H1. unfold mem_str in H1. apply existsb_exists in H1.
    destruct H1 as [x [Hx E]]. apply String.eqb_eq in E. now subst.
  - apply existsb_exists in H2. destruct H2 as [[[v' f] ls] [Hin E]]. apply String.eqb_eq in E.
    subst. eauto.
Qed.

Lemma sessions_guarded : guarded "ActiveUser.sessions" "ActiveUser.sessionsM".
Proof. apply guarded_check_sound. vm_compute. reflexivity. Qed.
Lemma queue_guarded : guarded "userPanel.usageUpdateQueue" "userPanel.usageUpdateQueueM".
Proof. apply guarded_check_sound. vm_compute. reflexivity. Qed.
Lemma activeUsers_map_guarded : guarded "userPanel.activeUsers" "userPanel.activeUsersM".
Proof. apply guarded_check_sound. vm_compute. reflexivity. Qed.
