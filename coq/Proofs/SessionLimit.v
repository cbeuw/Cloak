(* Proofs about Model/SessionLimit.v: whatever on-wire limit a Session is configured with,
   every message it sends (Stream.Write, Stream.ReadFrom, the closing notices) is at most that
   many bytes; for every limit that leaves room for a payload byte a Write is accepted whole,
   split into frames of at most maxStreamUnitWrite bytes that decode to exactly what was
   written, numbered consecutively; and what the code does for limits that leave no room. *)
From Coq Require Import NArith ZArith List Bool Lia Arith PeanoNat ZifyN ZifyNat ZifyBool.
From Cloak Require Import Gen.Consts Model.Crypto.CBytes Model.Crypto.AES
  Model.Codec Model.SessionLimit Proofs.Codec.
Import ListNotations.
Local Open Scope Z_scope.

(* ---- MakeSession -------------------------------------------------------------------------- *)
Lemma make_session_fields : forall L,
  ss_limit (make_session L) = limit_in_force L /\
  ss_sendbuf (make_session L) = limit_in_force L /\
  ss_unit (make_session L) = limit_in_force L - mux_frameHeaderLength - mux_maxExtraLen /\
  ss_recvbuf (make_session L) = mux_connReceiveBufferSize.
Proof. intros L. unfold make_session, limit_in_force, max_stream_unit_write. cbn. auto. Qed.

Lemma limit_in_force_pos : forall L, 0 < limit_in_force L.
Proof.
  intros L. unfold limit_in_force. destruct (Z.leb_spec L 0); [vm_compute; reflexivity | lia].
Qed.

Lemma limit_in_force_configured : forall L, 0 < L -> limit_in_force L = L.
Proof. intros L H. unfold limit_in_force. destruct (Z.leb_spec L 0); lia. Qed.

Lemma limit_in_force_default : forall L, L <= 0 -> limit_in_force L = mux_defaultMaxOnWireSize.
Proof. intros L H. unfold limit_in_force. destruct (Z.leb_spec L 0); lia. Qed.

(* generated obligations: the sizes the Go compiler / a real MakeSession reported for the limit
   the commands configure and for the default are the ones the model derives *)
Lemma make_session_generated :
  make_session client_appDataMaxLength =
    mkSizes client_appDataMaxLength mux_maxStreamUnitWrite_16401 mux_streamSendBufferSize_16401
            mux_connReceiveBufferSize /\
  make_session server_appDataMaxLength = make_session client_appDataMaxLength /\
  make_session 0 =
    mkSizes mux_default_MsgOnWireSizeLimit mux_default_maxStreamUnitWrite mux_defaultMaxOnWireSize
            mux_connReceiveBufferSize /\
  (* both limits leave room for the largest closing notice and fit the peer's receive buffer
     and one TLS record *)
  mux_frameHeaderLength + 256 + mux_maxExtraLen <= client_appDataMaxLength /\
  client_appDataMaxLength <= mux_connReceiveBufferSize /\
  mux_defaultMaxOnWireSize <= mux_connReceiveBufferSize /\
  client_appDataMaxLength <= common_tlsconn_write_limit /\
  mux_defaultMaxOnWireSize <= common_tlsconn_write_limit /\
  (* shape of the constants the arithmetic below relies on *)
  0 < mux_frameHeaderLength /\ 0 < mux_maxExtraLen /\
  closing_nothing = 0%N /\ (closing_stream < 256)%N /\ (closing_session < 256)%N.
Proof. vm_compute. repeat split; discriminate. Qed.

(* ---- lists by their Go length -------------------------------------------------------------- *)
(* The loops of the model branch on the shape of a list, their length plans on a Go length.  These
   turn the one into the other, so that a loop and its plan can be walked together: a match on
   the list is a test of len(l), l[:u] panics exactly when u < 0, and len(l[:n]) = n, len(l[n:]) =
   len(l) - n. *)
Lemma nil_or_pos : forall l, l = [] \/ 0 < zlen l.
Proof. intros [|x l]; [left; reflexivity | right; unfold zlen; cbn [length]; lia]. Qed.

Lemma list_case_zlen : forall (A : Type) (l : list N) (a b : A),
  match l with [] => a | _ :: _ => b end = if zlen l <=? 0 then a else b.
Proof. intros A [|x l] a b; reflexivity. Qed.

Lemma zlen_firstn : forall n l, 0 <= n <= zlen l -> zlen (firstn (Z.to_nat n) l) = n.
Proof. intros n l H. unfold zlen in *. rewrite firstn_length. lia. Qed.

Lemma zlen_skipn : forall n l, 0 <= n <= zlen l -> zlen (skipn (Z.to_nat n) l) = zlen l - n.
Proof. intros n l H. unfold zlen in *. rewrite skipn_length. lia. Qed.

Lemma zslice_0 : forall u l, u <= zlen l ->
  zslice 0 u l = if u <? 0 then None else Some (firstn (Z.to_nat u) l).
Proof.
  intros u l H. destruct (Z.ltb_spec u 0); [|now rewrite zslice_ok, Z.sub_0_r by lia].
  unfold zslice. destruct (Z.leb_spec 0 u); [lia | reflexivity].
Qed.

(* ---- one obfuscate call --------------------------------------------------------------------- *)
Definition within (lim : Z) (wire : list (list N)) : Prop := Forall (fun msg => zlen msg <= lim) wire.

(* MakeSession makes every send buffer exactly MsgOnWireSizeLimit long *)
Lemma within_limit : forall L wire,
  within (ss_sendbuf (make_session L)) wire -> within (limit_in_force L) wire.
Proof. intros L wire H. destruct (make_session_fields L) as (_ & <- & _). exact H. Qed.

Lemma within_le : forall lim lim' wire, lim <= lim' -> within lim wire -> within lim' wire.
Proof. intros lim lim' wire H. apply Forall_impl. intros msg Hm. exact (Z.le_trans _ _ _ Hm H). Qed.

(* What one sesh.obfuscate call does, for any sizes and any cipher.  When it returns a message: the
   length plan returns that message's length; the message is no longer than the buffer; and it
   decodes to the frame, provided the frame's fields fit their header bytes.  When it refuses, so
   does the plan.  The second clause is where the size limit comes from: obfuscate never writes
   past the buffer it is given, and the session's buffers are the limit long (within_limit). *)
Lemma sess_obfuscate_spec : forall ss c key f r, cipher_ok c ->
  match sess_obfuscate ss c key f r with
  | Some msg =>
      obfuscate_len ss (tag_len_of c) (f_seq f) (zlen (f_payload f)) (fst r, zlen (snd r)) = Some (zlen msg) /\
      zlen msg <= ss_sendbuf ss /\
      ((f_sid f < 2 ^ 32)%N -> (f_seq f < 2 ^ 64)%N -> (f_closing f < 256)%N ->
       Z.of_N (pad_len (f_seq f) (fst r)) + tag_len_of c <= mux_maxExtraLen -> decode_with c key msg = Ok f)
  | None => obfuscate_len ss (tag_len_of c) (f_seq f) (zlen (f_payload f)) (fst r, zlen (snd r)) = None
  end.
Proof.
  intros ss c key f r Hok. unfold sess_obfuscate, encode_in_buf, obfuscate_len. cbn [fst snd].
  set (padLen := pad_len (f_seq f) (fst r)).
  destruct (Nat.eqb_spec (length (f_payload f)) 0) as [E|Hne]; [unfold zlen; rewrite E; reflexivity|].
  destruct (Z.eqb_spec (zlen (f_payload f)) 0) as [E|_]; [unfold zlen in E; lia|].
  destruct (Z.ltb_spec (ss_sendbuf ss) (mux_frameHeaderLength + zlen (f_payload f) + Z.of_N padLen + tag_len_of c))
    as [|Hfit]; [reflexivity|].
  destruct (encode_with c key f padLen (snd r)) as [msg|] eqn:He.
  - destruct (encode_with_some_inv _ _ _ _ _ _ He) as [Hp Hrnd].
    rewrite (encode_with_length _ _ _ _ _ _ Hok He), Hrnd, Z.eqb_refl.
    split; [reflexivity|]. split; [exact Hfit|]. intros Hsid Hseq Hcl Hpad.
    destruct (roundtrip_with c key f padLen (snd r)) as (msg' & He' & Hd & _); try assumption; [lia|]. congruence.
  - destruct (Z.eqb_spec (zlen (snd r)) (Z.of_N padLen + tag_len_of c)) as [Hrnd|]; [|reflexivity].
    rewrite encode_with_layout in He; [discriminate | assumption | lia | assumption].
Qed.

(* one frame within the maximum, with a draw below the bound and as many random bytes as obfuscate
   asks for: accepted, decodes to itself, within the limit *)
Lemma sess_obfuscate_ok : forall L m key f r,
  (f_sid f < 2 ^ 32)%N -> (f_seq f < 2 ^ 64)%N -> (f_closing f < 256)%N ->
  1 <= zlen (f_payload f) <= ss_unit (make_session L) ->
  Z.of_N (fst r) < rand_bound (payload_cipher m key) ->
  zlen (snd r) = Z.of_N (pad_len (f_seq f) (fst r)) + method_tag_len m ->
  exists msg, sess_obfuscate (make_session L) (payload_cipher m key) key f r = Some msg /\
    decode m key msg = Ok f /\ zlen msg <= limit_in_force L.
Proof.
  intros L m key f r Hsid Hseq Hcl Hp Hd Hr.
  destruct (make_session_fields L) as (_ & Hsb & Hun & _).
  pose proof (pad_len_le m key (f_seq f) (fst r) Hd) as Hpad.
  pose proof (sess_obfuscate_spec (make_session L) _ key f r (payload_cipher_ok m key)) as S.
  rewrite tag_len_of_method in S.
  destruct (sess_obfuscate (make_session L) (payload_cipher m key) key f r) as [msg|].
  - destruct S as (_ & Hle & Hdec). exists msg. split; [reflexivity|].
    split; [apply Hdec; try assumption; lia | rewrite <- Hsb; exact Hle].
  - exfalso. unfold obfuscate_len in S. cbn [fst snd] in S. rewrite Hsb, Hr, Z.eqb_refl in S.
    destruct (Z.eqb_spec (zlen (f_payload f)) 0); [lia|].
    destruct (Z.ltb_spec (limit_in_force L)
                (mux_frameHeaderLength + zlen (f_payload f) + Z.of_N (pad_len (f_seq f) (fst r)) + method_tag_len m));
      [lia | discriminate].
Qed.

(* ---- what holds of every run, whatever the sizes and the cipher: it agrees with its length plan,
        and every message on the wire is within the send buffer = the limit ------------------------ *)
Definition len_draws (rand : draws) : nat -> N * Z := fun j => (fst (rand j), zlen (snd (rand j))).

Definition plan_agrees (r : send_result) (p : plan) : Prop :=
  map zlen (r_wire r) = map snd (p_msgs p) /\ r_n r = p_n p /\ r_seq r = p_seq p /\ r_end r = p_end p.

Definition agrees (ss : session_sizes) (r : send_result) (p : plan) : Prop :=
  plan_agrees r p /\ within (ss_sendbuf ss) (r_wire r).

Lemma agrees_plan : forall ss r p, agrees ss r p -> plan_agrees r p.
Proof. intros ss r p H. apply H. Qed.

Lemma agrees_within : forall ss r p, agrees ss r p -> within (ss_sendbuf ss) (r_wire r).
Proof. intros ss r p H. apply H. Qed.

Lemma agrees_nil : forall ss n s e, agrees ss (mkRes [] n s e) (mkPlan [] n s e).
Proof. intros. repeat split. constructor. Qed.

(* One obfuscate call in front of a run that agrees with its plan agrees with the plan that has one
   obfuscate_len in front.  R and P are the rest of the run and of the plan; f is the frame sent,
   n its payload length as the plan has it, s the sequence number kept when obfuscate refuses;
   cnt and cnt' are the byte counts the two sides report, equal once those of R and P are. *)
Lemma agrees_send : forall ss c key f r n s cnt cnt' R P, cipher_ok c ->
  zlen (f_payload f) = n -> (r_n R = p_n P -> cnt = cnt') -> agrees ss R P ->
  agrees ss
    (match sess_obfuscate ss c key f r with
     | None => mkRes [] 0 s EndObfsError
     | Some msg => mkRes (msg :: r_wire R) cnt (r_seq R) (r_end R)
     end)
    (match obfuscate_len ss (tag_len_of c) (f_seq f) n (fst r, zlen (snd r)) with
     | None => mkPlan [] 0 s EndObfsError
     | Some l => mkPlan ((n, l) :: p_msgs P) cnt' (p_seq P) (p_end P)
     end).
Proof.
  intros ss c key f r n s cnt cnt' R P Hok <- Hcnt [(Hw & Hn & Hs & He) HW].
  pose proof (sess_obfuscate_spec ss c key f r Hok) as S.
  destruct (sess_obfuscate ss c key f r) as [msg|]; [destruct S as (-> & Hle & _) | rewrite S; apply agrees_nil].
  repeat split; cbn [r_wire r_n r_seq r_end p_msgs p_n p_seq p_end map snd]; try congruence; auto.
  constructor; assumption.
Qed.

Lemma write_loop_agrees : forall c, cipher_ok c ->
  forall ss unordered key sid rand fuel seq rest k,
  agrees ss (write_loop fuel ss unordered c key sid seq rest k rand)
            (write_plan fuel ss unordered (tag_len_of c) seq (zlen rest) k (len_draws rand)).
Proof.
  intros c Hok ss unordered key sid rand. induction fuel as [|fuel IH]; intros seq rest k;
    cbn [write_loop write_plan]; rewrite list_case_zlen; destruct (zlen rest <=? 0); try apply agrees_nil.
  destruct (Z.leb_spec (zlen rest) (ss_unit ss)).
  - apply agrees_send with (R := mkRes [] 0 (next_seq seq) EndOk) (P := mkPlan [] 0 (next_seq seq) EndOk);
      [exact Hok | reflexivity | reflexivity | apply agrees_nil].
  - destruct unordered; [apply agrees_nil|]. rewrite zslice_0 by lia.
    destruct (Z.ltb_spec (ss_unit ss) 0); [apply agrees_nil|].
    specialize (IH (next_seq seq) (skipn (Z.to_nat (ss_unit ss)) rest) (S k)).
    rewrite zlen_skipn in IH by lia.
    apply agrees_send; [exact Hok | apply zlen_firstn; lia | rewrite zlen_firstn by lia; intros ->; reflexivity | exact IH].
Qed.

Lemma read_from_loop_agrees : forall c, cipher_ok c ->
  forall ss key sid rand sizes seq data k,
  agrees ss (read_from_loop ss c key sid seq data sizes k rand)
            (read_from_plan ss (tag_len_of c) seq (zlen data) sizes k (len_draws rand)).
Proof.
  intros c Hok ss key sid rand. induction sizes as [|sz sizes IH]; intros seq data k;
    cbn [read_from_loop read_from_plan]; destruct (_ || _); try apply agrees_nil.
  rewrite list_case_zlen. destruct (Z.leb_spec (zlen data) 0); [apply agrees_nil|].
  set (n := Z.max 0 (zmin3 sz (ss_unit ss) (zlen data))).
  assert (Hn : 0 <= n <= zlen data) by (unfold n, zmin3; lia).
  specialize (IH (next_seq seq) (skipn (Z.to_nat n) data) (S k)). rewrite zlen_skipn in IH by exact Hn.
  apply agrees_send; [exact Hok | apply zlen_firstn, Hn | rewrite zlen_firstn by exact Hn; intros ->; reflexivity | exact IH].
Qed.

(* the notice: its one message is within the buffer whatever the filler *)
Lemma closing_notice_within : forall c, cipher_ok c ->
  forall ss key sid seq closing b filler r,
  within (ss_sendbuf ss) (r_wire (closing_notice ss c key sid seq closing b filler r)).
Proof.
  intros c Hok ss key sid seq closing b filler r. unfold closing_notice.
  destruct (_ || _); [constructor|].
  pose proof (sess_obfuscate_spec ss c key (mkFrame sid seq closing (firstn (Z.to_nat (Z.of_N (byte_of b) + 1)) filler))
                r Hok) as S.
  destruct (sess_obfuscate _ _ _ _ _); repeat constructor. apply S.
Qed.

(* the plan takes the filler to be as long as the code makes it *)
Lemma closing_notice_agrees : forall c, cipher_ok c ->
  forall ss key sid seq closing b filler r,
  Z.of_N (byte_of b) + 1 <= zlen filler ->
  agrees ss (closing_notice ss c key sid seq closing b filler r)
            (closing_notice_plan ss (tag_len_of c) seq b (fst r, zlen (snd r))).
Proof.
  intros c Hok ss key sid seq closing b filler r Hfill. unfold closing_notice, closing_notice_plan.
  destruct (_ || _); [apply agrees_nil|].
  apply agrees_send with (R := mkRes [] 0 (next_seq seq) EndOk) (P := mkPlan [] 0 (next_seq seq) EndOk);
    [exact Hok | | reflexivity | apply agrees_nil].
  apply zlen_firstn. pose proof (zlen_nonneg filler). lia.
Qed.

(* THE SIZE CLAUSE, for every configured limit (any Go int: <= 0 means the default), both
   modes, every method, key, stream id, sequence number, input and all randomness *)
Theorem session_write_within_limit : forall (L : Z) (unordered : bool) m key sid seq input rand,
  within (limit_in_force L)
    (r_wire (stream_write (make_session L) unordered (payload_cipher m key) key sid seq input rand)).
Proof.
  intros. apply within_limit.
  exact (agrees_within _ _ _ (write_loop_agrees _ (payload_cipher_ok m key) (make_session L) _ _ _ _ _ _ _ _)).
Qed.

(* ---- sequence numbers ----------------------------------------------------------------------- *)
Lemma next_seq_lt : forall s, (next_seq s < 2 ^ 64)%N.
Proof. intros s. unfold next_seq. apply N.mod_lt. discriminate. Qed.

Fixpoint seq_at (seq : N) (k : nat) : N :=
  match k with O => seq | S k' => seq_at (next_seq seq) k' end.

Lemma seq_at_lt : forall k seq, (seq < 2 ^ 64)%N -> (seq_at seq k < 2 ^ 64)%N.
Proof.
  induction k as [|k IH]; intros seq H; [exact H|]. cbn [seq_at]. apply IH, next_seq_lt.
Qed.

(* the j-th obfuscate call of an operation that starts at sequence number seq with call index k
   gets a RandInt result below the bound and as many random bytes as obfuscate asks for *)
Definition admissible (m : method) (key : list N) (seq : N) (k : nat) (rand : draws) : Prop :=
  forall j : nat,
    Z.of_N (fst (rand (k + j)%nat)) < rand_bound (payload_cipher m key) /\
    zlen (snd (rand (k + j)%nat)) =
      Z.of_N (pad_len (seq_at seq j) (fst (rand (k + j)%nat))) + method_tag_len m.

Lemma admissible_next : forall m key seq k rand,
  admissible m key seq k rand -> admissible m key (next_seq seq) (S k) rand.
Proof.
  intros m key seq k rand H j. specialize (H (S j)).
  replace (k + S j)%nat with (S k + j)%nat in H by lia. exact H.
Qed.

(* the first call of such an operation sends a data frame of 1..maxStreamUnitWrite bytes *)
Lemma admissible_send : forall L m key sid seq k rand payload,
  (sid < 2 ^ 32)%N -> (seq < 2 ^ 64)%N -> admissible m key seq k rand ->
  1 <= zlen payload <= ss_unit (make_session L) ->
  exists msg, sess_obfuscate (make_session L) (payload_cipher m key) key
                (mkFrame sid seq closing_nothing payload) (rand k) = Some msg /\
    decode m key msg = Ok (mkFrame sid seq closing_nothing payload) /\ zlen msg <= limit_in_force L.
Proof.
  intros L m key sid seq k rand payload Hsid Hseq Hadm Hp.
  destruct (Hadm 0%nat) as [Hd0 Hr0]. rewrite Nat.add_0_r in Hd0, Hr0.
  apply sess_obfuscate_ok; try assumption. reflexivity.
Qed.

(* ---- Stream.Write, ordered: the pure splitting the loop performs ---------------------------- *)
Fixpoint chunks (fuel unit : nat) (l : list N) : list (list N) :=
  match l with
  | [] => []
  | _ :: _ =>
      match fuel with
      | O => []
      | S fuel' => if Nat.leb (length l) unit then [l]
                   else firstn unit l :: chunks fuel' unit (skipn unit l)
      end
  end.
Definition chunks_of (unit : Z) (l : list N) : list (list N) := chunks (S (length l)) (Z.to_nat unit) l.

Fixpoint frames_from (sid seq : N) (chs : list (list N)) : list frame :=
  match chs with
  | [] => []
  | ch :: t => mkFrame sid seq closing_nothing ch :: frames_from sid (next_seq seq) t
  end.

Lemma chunks_S : forall fuel unit l, (0 < length l)%nat ->
  chunks (S fuel) unit l =
  if Nat.leb (length l) unit then [l] else firstn unit l :: chunks fuel unit (skipn unit l).
Proof. intros fuel unit [|x l] H; [inversion H | reflexivity]. Qed.

Lemma chunks_concat : forall fuel unit l, (1 <= unit)%nat -> (length l < fuel)%nat ->
  concat (chunks fuel unit l) = l /\
  Forall (fun ch => (1 <= length ch <= unit)%nat) (chunks fuel unit l).
Proof.
  induction fuel as [|fuel IH]; intros unit l Hu Hl; [lia|].
  destruct l as [|b0 l'] eqn:El; [split; [reflexivity | constructor]|]. rewrite <- El in *.
  assert (Hpos : (0 < length l)%nat) by (rewrite El; cbn [length]; lia).
  rewrite chunks_S by exact Hpos. destruct (Nat.leb_spec (length l) unit) as [Hle|Hgt]; cbn [concat].
  - rewrite app_nil_r. split; [reflexivity|]. constructor; [lia | constructor].
  - destruct (IH unit (skipn unit l) Hu) as [Hc Hf]; [rewrite skipn_length; lia|].
    rewrite Hc. split; [apply firstn_skipn|].
    constructor; [rewrite firstn_length; lia | exact Hf].
Qed.

Lemma chunks_fuel : forall fuel1 fuel2 unit l, (1 <= unit)%nat ->
  (length l < fuel1)%nat -> (length l < fuel2)%nat -> chunks fuel1 unit l = chunks fuel2 unit l.
Proof.
  induction fuel1 as [|fuel1 IH]; intros fuel2 unit l Hu H1 H2; [lia|].
  destruct fuel2 as [|fuel2]; [lia|].
  destruct (Nat.eq_dec (length l) 0) as [E|Hpos]; [destruct l; [reflexivity | discriminate E]|].
  rewrite !chunks_S by lia. destruct (Nat.leb_spec (length l) unit); [reflexivity|].
  f_equal. apply IH; try assumption; rewrite skipn_length; lia.
Qed.

Lemma write_loop_complete : forall L m key sid,
  (sid < 2 ^ 32)%N -> 1 <= ss_unit (make_session L) ->
  forall fuel seq rest k rand,
  (length rest < fuel)%nat -> (seq < 2 ^ 64)%N -> admissible m key seq k rand ->
  let r := write_loop fuel (make_session L) false (payload_cipher m key) key sid seq rest k rand in
  let chs := chunks fuel (Z.to_nat (ss_unit (make_session L))) rest in
  r_end r = EndOk /\ r_n r = zlen rest /\
  map (decode m key) (r_wire r) = map Ok (frames_from sid seq chs) /\
  r_seq r = seq_at seq (length chs).
Proof.
  intros L m key sid Hsid Hunit.
  induction fuel as [|fuel IH]; intros seq rest k rand Hfuel Hseq Hadm; [lia|].
  destruct (nil_or_pos rest) as [->|Hpos]; [cbn; auto|].
  cbn [write_loop]. rewrite list_case_zlen, chunks_S by (unfold zlen in Hpos; lia).
  destruct (Z.leb_spec (zlen rest) 0); [lia|].
  pose proof (admissible_send L m key sid seq k rand) as Hsend.
  destruct (Z.leb_spec (zlen rest) (ss_unit (make_session L))) as [Hfit|Hsplit].
  - destruct (Nat.leb_spec (length rest) (Z.to_nat (ss_unit (make_session L)))); [|unfold zlen in *; lia].
    destruct (Hsend rest) as (msg & -> & Hdec & _); try assumption; [lia|].
    cbn. rewrite Hdec. auto.
  - destruct (Nat.leb_spec (length rest) (Z.to_nat (ss_unit (make_session L)))); [unfold zlen in *; lia|].
    rewrite zslice_0 by lia. destruct (Z.ltb_spec (ss_unit (make_session L)) 0); [lia|].
    destruct (Hsend (firstn (Z.to_nat (ss_unit (make_session L))) rest)) as (msg & -> & Hdec & _);
      try assumption; [rewrite zlen_firstn; lia|].
    destruct (IH (next_seq seq) (skipn (Z.to_nat (ss_unit (make_session L))) rest) (S k) rand)
      as (I1 & I2 & I3 & I4);
      [rewrite skipn_length; lia | apply next_seq_lt | apply admissible_next, Hadm |].
    cbn [r_end r_n r_wire r_seq map frames_from length seq_at].
    rewrite I1, I2, I3, I4, Hdec, zlen_firstn, zlen_skipn by lia. repeat split. lia.
Qed.

(* A Write on an ordered session whose limit leaves room for at least one payload byte: the
   whole input is accepted, every message decodes (under the session key) to the next chunk of
   at most maxStreamUnitWrite bytes with the next sequence number, the chunks concatenate to
   the input, none is empty, and every message is within the limit *)
Theorem session_write_complete : forall (L : Z) m key sid seq input rand,
  mux_frameHeaderLength + mux_maxExtraLen < limit_in_force L ->
  (sid < 2 ^ 32)%N -> (seq < 2 ^ 64)%N -> admissible m key seq 0 rand ->
  let ss := make_session L in
  let r := stream_write ss false (payload_cipher m key) key sid seq input rand in
  let chs := chunks_of (ss_unit ss) input in
  r_end r = EndOk /\ r_n r = zlen input /\
  map (decode m key) (r_wire r) = map Ok (frames_from sid seq chs) /\
  r_seq r = seq_at seq (length chs) /\
  concat chs = input /\
  Forall (fun ch => 1 <= zlen ch <= ss_unit ss) chs /\
  within (limit_in_force L) (r_wire r).
Proof.
  intros L m key sid seq input rand HL Hsid Hseq Hadm ss r chs.
  destruct (make_session_fields L) as (_ & _ & Hun & _). fold ss in Hun.
  assert (Hunit : 1 <= ss_unit ss) by lia.
  destruct (write_loop_complete L m key sid Hsid Hunit (S (length input)) seq input 0%nat rand
              ltac:(lia) Hseq Hadm) as (H1 & H2 & H3 & H4).
  destruct (chunks_concat (S (length input)) (Z.to_nat (ss_unit ss)) input ltac:(lia) ltac:(lia)) as [H5 H6].
  repeat split; try assumption.
  - eapply Forall_impl; [|exact H6]. cbn beta. intros ch Hch. unfold zlen. lia.
  - apply session_write_within_limit.
Qed.

(* ---- what the first iteration of Stream.Write decides ------------------------------------------ *)
Theorem session_write_unordered : forall (L : Z) m key sid seq input rand,
  (sid < 2 ^ 32)%N -> (seq < 2 ^ 64)%N -> admissible m key seq 0 rand -> input <> [] ->
  let ss := make_session L in
  let r := stream_write ss true (payload_cipher m key) key sid seq input rand in
  (zlen input <= ss_unit ss ->
     exists msg, r = mkRes [msg] (zlen input) (next_seq seq) EndOk /\
       decode m key msg = Ok (mkFrame sid seq closing_nothing input) /\ zlen msg <= limit_in_force L) /\
  (ss_unit ss < zlen input -> r = mkRes [] 0 seq EndShortBuffer).
Proof.
  intros L m key sid seq input rand Hsid Hseq Hadm Hne. cbv zeta.
  destruct (nil_or_pos input) as [|Hpos]; [contradiction|].
  unfold stream_write. cbn [write_loop]. rewrite list_case_zlen.
  destruct (Z.leb_spec (zlen input) 0) as [|_]; [lia|].
  split; intros H; destruct (Z.leb_spec (zlen input) (ss_unit (make_session L))); try lia; [|reflexivity].
  destruct (admissible_send L m key sid seq 0%nat rand input) as (msg & -> & Hdec & Hle); try assumption; [lia|].
  exists msg. auto.
Qed.

(* 0 < L < 14 + 255: maxStreamUnitWrite is negative; an ordered Write of anything panics in
   in[n : maxStreamUnitWrite+n], ReadFrom panics in its buffer slice; nothing reaches the wire *)
Theorem session_limit_below_overhead : forall (L : Z) m key sid seq input data sizes rand,
  0 < L -> L < mux_frameHeaderLength + mux_maxExtraLen -> input <> [] ->
  stream_write (make_session L) false (payload_cipher m key) key sid seq input rand = mkRes [] 0 seq EndPanic /\
  stream_write (make_session L) true (payload_cipher m key) key sid seq input rand = mkRes [] 0 seq EndShortBuffer /\
  stream_read_from (make_session L) (payload_cipher m key) key sid seq data sizes rand = mkRes [] 0 seq EndPanic.
Proof.
  intros L m key sid seq input data sizes rand H0 H1 Hne.
  destruct (make_session_fields L) as (_ & _ & Hun & _). rewrite (limit_in_force_configured L H0) in Hun.
  destruct (nil_or_pos input) as [|Hpos]; [contradiction|].
  unfold stream_write, stream_read_from. cbn [write_loop]. rewrite !list_case_zlen, zslice_0 by lia.
  destruct (Z.leb_spec (zlen input) 0); [lia|].
  destruct (Z.leb_spec (zlen input) (ss_unit (make_session L))); [lia|].
  destruct sizes; cbn [read_from_loop]; (destruct (Z.ltb_spec (ss_unit (make_session L)) 0); [|lia]);
    repeat split.
Qed.

(* L = 14 + 255: maxStreamUnitWrite is 0; an ordered Write cuts an empty frame, obfuscate refuses
   it ("payload cannot be empty") and the sequence counter stays where it was *)
Theorem session_limit_equal_overhead : forall (L : Z) m key sid seq input rand,
  L = mux_frameHeaderLength + mux_maxExtraLen -> input <> [] ->
  stream_write (make_session L) false (payload_cipher m key) key sid seq input rand
    = mkRes [] 0 seq EndObfsError /\
  stream_write (make_session L) true (payload_cipher m key) key sid seq input rand
    = mkRes [] 0 seq EndShortBuffer.
Proof.
  intros L m key sid seq input rand HL Hne.
  assert (H0 : 0 < L) by (subst L; reflexivity).
  destruct (make_session_fields L) as (_ & _ & Hun & _). rewrite (limit_in_force_configured L H0) in Hun.
  destruct (nil_or_pos input) as [|Hpos]; [contradiction|].
  unfold stream_write. cbn [write_loop]. rewrite !list_case_zlen, zslice_0 by lia.
  replace (ss_unit (make_session L)) with 0 by lia.
  destruct (Z.leb_spec (zlen input) 0); [lia|]. repeat split.
Qed.

(* ---- closing notices --------------------------------------------------------------------------- *)
(* a limit of at least 14 + 256 + 255 carries every closing notice (both limits in use do) *)
Theorem session_closing_notice_sent : forall (L : Z) m key sid seq closing b filler r,
  mux_frameHeaderLength + 256 + mux_maxExtraLen <= limit_in_force L ->
  (sid < 2 ^ 32)%N -> (seq < 2 ^ 64)%N -> (closing < 256)%N ->
  Z.of_N (byte_of b) + 1 <= zlen filler ->
  Z.of_N (fst r) < rand_bound (payload_cipher m key) ->
  zlen (snd r) = Z.of_N (pad_len seq (fst r)) + method_tag_len m ->
  let payload := firstn (Z.to_nat (Z.of_N (byte_of b) + 1)) filler in
  exists msg,
    closing_notice (make_session L) (payload_cipher m key) key sid seq closing b filler r
      = mkRes [msg] 0 (next_seq seq) EndOk /\
    decode m key msg = Ok (mkFrame sid seq closing payload) /\ zlen msg <= limit_in_force L.
Proof.
  intros L m key sid seq closing b filler r HL Hsid Hseq Hcl Hfill Hd Hr payload.
  destruct (make_session_fields L) as (_ & Hsb & Hun & _).
  assert (Hb : (byte_of b < 256)%N).
  { unfold byte_of. change 255%N with (N.ones 8). rewrite N.land_ones. apply N.mod_lt. discriminate. }
  assert (Hpl : zlen payload = Z.of_N (byte_of b) + 1) by (apply zlen_firstn; lia).
  destruct (sess_obfuscate_ok L m key (mkFrame sid seq closing payload) r) as (msg & He & Hdec & Hle);
    cbn [f_sid f_seq f_closing f_payload]; try assumption; [lia|].
  exists msg. unfold closing_notice. fold payload. rewrite He, Hsb.
  destruct (Z.ltb_spec (limit_in_force L) 1);
    [|destruct (Z.gtb_spec (Z.of_N (byte_of b) + 1 + mux_frameHeaderLength) (limit_in_force L)); [|auto]];
    unfold mux_frameHeaderLength, mux_maxExtraLen in *; lia.
Qed.

(* below that the notice may be refused or the payload slice may panic, depending on the draw *)
Theorem session_closing_notice_small : forall (L : Z) m key sid seq closing b filler r,
  let res := closing_notice (make_session L) (payload_cipher m key) key sid seq closing b filler r in
  (limit_in_force L < Z.of_N (byte_of b) + 1 + mux_frameHeaderLength -> res = mkRes [] 0 seq EndPanic) /\
  (r_end res = EndPanic -> limit_in_force L < Z.of_N (byte_of b) + 1 + mux_frameHeaderLength) /\
  (r_end res = EndOk -> exists msg, r_wire res = [msg] /\ zlen msg <= limit_in_force L).
Proof.
  intros L m key sid seq closing b filler r res.
  pose proof (closing_notice_within _ (payload_cipher_ok m key) (make_session L) key sid seq closing b filler r) as HW.
  fold res in HW. revert HW.
  destruct (make_session_fields L) as (_ & Hsb & _). pose proof (limit_in_force_pos L) as Hpos.
  unfold res, closing_notice. rewrite Hsb.
  destruct (Z.ltb_spec (limit_in_force L) 1); [lia|].
  destruct (Z.gtb_spec (Z.of_N (byte_of b) + 1 + mux_frameHeaderLength) (limit_in_force L)); cbn [orb].
  - intros _. repeat split; try reflexivity; cbn [r_end]; try discriminate. intros _. lia.
  - destruct (sess_obfuscate _ _ key _ r) as [msg|]; cbn [r_end r_wire]; intros HW;
      (split; [lia|]); split; try discriminate.
    intros _. exists msg. split; [reflexivity|]. inversion HW; assumption.
Qed.

(* ---- the hypotheses are met: concrete sessions evaluated inside Coq with a real cipher ------------ *)
(* a RandInt result of 0 with exactly tagLen random bytes is admissible at every sequence number *)
Definition ex_draws0 : draws := fun _ => (0%N, nrange 7 16).
(* 3 bytes of padding on the frames that are padded (seq < 5), none afterwards *)
Definition ex_draws3 : draws := fun k => if Nat.ltb k 5 then (3%N, nrange 7 (3 + 16)) else (3%N, nrange 7 16).

Example admissible_example : forall seq, admissible ChaCha20Poly1305 ex_key seq 0 ex_draws0.
Proof.
  intros seq j. split; [vm_compute; reflexivity|].
  unfold pad_len, ex_draws0. cbn [fst snd]. destruct (_ <? _); reflexivity.
Qed.

(* limit 300: maxStreamUnitWrite = 31; 70 bytes make frames of 31, 31 and 8 bytes, i.e. messages of
   61, 61 and 38 bytes from sequence number 5 on and of 64, 64 and 41 bytes with 3 bytes of padding
   from sequence number 0; all decode to what was written *)
Example session_300_chacha :
  let ss := make_session 300 in
  let c := payload_cipher ChaCha20Poly1305 ex_key in
  let r := stream_write ss false c ex_key 1 5 (nrange 0 70) ex_draws0 in
  let r' := stream_write ss false c ex_key 1 0 (nrange 0 70) ex_draws3 in
  ss = mkSizes 300 31 300 mux_connReceiveBufferSize /\
  r_end r = EndOk /\ r_n r = 70 /\ map zlen (r_wire r) = [61; 61; 38] /\ r_seq r = 8%N /\
  map (decode ChaCha20Poly1305 ex_key) (r_wire r) =
    map Ok (frames_from 1 5 [nrange 0 31; nrange 31 31; nrange 62 8]) /\
  r_end r' = EndOk /\ map zlen (r_wire r') = [64; 64; 41] /\
  map (decode ChaCha20Poly1305 ex_key) (r_wire r') =
    map Ok (frames_from 1 0 [nrange 0 31; nrange 31 31; nrange 62 8]).
Proof. vm_compute. repeat split. Qed.

(* the small limits: 268 panics, 269 refuses an empty frame, 270 carries one byte per frame *)
Example session_small_limits :
  let c := payload_cipher Plain ex_key in
  let rnd : draws := fun _ => (0%N, nrange 7 8) in
  stream_write (make_session 268) false c ex_key 1 5 [1; 2]%N rnd = mkRes [] 0 5%N EndPanic /\
  stream_write (make_session 269) false c ex_key 1 5 [1; 2]%N rnd = mkRes [] 0 5%N EndObfsError /\
  map zlen (r_wire (stream_write (make_session 270) false c ex_key 1 5 [1; 2]%N rnd)) = [23; 23] /\
  r_end (stream_write (make_session 270) true c ex_key 1 5 [1; 2]%N rnd) = EndShortBuffer /\
  (* a closing notice of 200 filler bytes does not fit a 200-byte buffer: the payload slice panics;
     with limit 300 the same notice is refused when 100 bytes of padding are drawn on top *)
  r_end (closing_notice (make_session 200) c ex_key 1 0 1 199 (nrange 0 256) (0%N, nrange 7 8)) = EndPanic /\
  r_end (closing_notice (make_session 300) c ex_key 1 0 1 199 (nrange 0 256) (100%N, nrange 7 108)) = EndObfsError /\
  map zlen (r_wire (closing_notice (make_session 300) c ex_key 1 0 1 199 (nrange 0 256) (60%N, nrange 7 68))) = [282].
Proof. vm_compute. repeat split. Qed.
