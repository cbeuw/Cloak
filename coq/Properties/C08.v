(* C08 - a captured handshake can never be replayed successfully.
   Only the property theorems, each proved in a line or two from the lemmas of Proofs/Replay.v.
   Model: Model/Replay.v (registerRandom, UsedRandomCleaner, AuthFirstPacket's order of
   test-and-set and decryption, decryptClientInfo's window; all times in ns). *)
From Coq Require Import ZArith NArith List.
From Cloak Require Import Model.Replay Proofs.Replay.
Import ListNotations.
Local Open Scope Z_scope.

(* Every history with a clock that does not run backwards: once a presentation of p was accepted,
   every later presentation of any packet with the same cache key, made while p's timestamp is
   still inside the acceptance window, is answered ErrReplay - whatever clean-ups, other packets
   and refreshing replays happened in between.  (t1 = clock read of registerRandom, t1' = clock
   read handed to decryptClientInfo; they must fall into the same second - they are the same
   instant under the virtual clock; C08_two_reads_gap shows the premise cannot be dropped.) *)
Theorem C08_cache_sound :
  forall keyfn lb0 h1 h2 h3 p t1 t1' q t2 t2' ts,
  let h := h1 ++ Present p t1 t1' :: h2 ++ Present q t2 t2' :: h3 in
  ordered lb0 h = true ->
  t1 / ns_per_s = t1' / ns_per_s ->
  nth_error (outcomes rule_fixed keyfn h) (length h1) = Some (Some OAccept) ->
  p_auth p = Some ts ->
  keyfn (p_random q) = keyfn (p_random p) -> p_parses q = true ->
  in_window ts t2' = true ->
  nth_error (outcomes rule_fixed keyfn h) (length h1 + 1 + length h2) = Some (Some OReplay).
Proof. exact cache_sound. Qed.
Print Assumptions C08_cache_sound.

(* ... hence of all presentations of one packet (same cache key, same sealed content) at most one
   is accepted, in the window or out of it *)
Theorem C08_cache_at_most_one :
  forall keyfn lb0 h1 h2 h3 p t1 t1' q t2 t2',
  let h := h1 ++ Present p t1 t1' :: h2 ++ Present q t2 t2' :: h3 in
  ordered lb0 h = true ->
  t1 / ns_per_s = t1' / ns_per_s ->
  keyfn (p_random q) = keyfn (p_random p) -> p_auth q = p_auth p ->
  nth_error (outcomes rule_fixed keyfn h) (length h1) = Some (Some OAccept) ->
  nth_error (outcomes rule_fixed keyfn h) (length h1 + 1 + length h2) <> Some (Some OAccept).
Proof. exact cache_at_most_one. Qed.
Print Assumptions C08_cache_at_most_one.

(* the hypotheses are met by a non-trivial history (and the conclusion is visible in it) *)
Example C08_cache_sound_inhabited :
  ordered 0 history_one = true /\
  outcomes rule_fixed mask255 history_one = [Some OAccept; None; Some OReplay].
Proof. split; [exact (proj1 rule_one_unsound) | exact rule_fixed_on_history_one]. Qed.

(* 2 x tolerance is the weakest sound retention: with 1 x tolerance a packet whose timestamp was
   179 s ahead is forgotten 181 s after its sighting and replayed 1 s later *)
Theorem C08_cleaner_rule_necessary :
  ordered 0 history_one = true /\
  outcomes rule_one mask255 history_one = [Some OAccept; None; Some OAccept].
Proof. exact rule_one_unsound. Qed.
Print Assumptions C08_cleaner_rule_necessary.

(* F1: with the ORIGINAL cleaner condition t < now + 180 s every
   history  Present p t ; Clean (t + 1 s) ; Present p (t + 2 s)  accepts twice ... *)
Theorem C08_refuted_prefix_cleaner : forall t, 0 <= t ->
  ordered 0 (history_F1 t) = true /\
  outcomes rule_prefix mask255 (history_F1 t) = [Some OAccept; None; Some OAccept].
Proof. exact prefix_cleaner_unsound. Qed.
Print Assumptions C08_refuted_prefix_cleaner.
(* ... and the repaired condition answers the second presentation with ErrReplay *)
Theorem C08_fixed_cleaner_on_F1 : forall t, 0 <= t ->
  outcomes rule_fixed mask255 (history_F1 t) = [Some OAccept; None; Some OReplay].
Proof. exact fixed_cleaner_on_F1. Qed.

(* F2: the cache key masks bit 255 of the little-endian public value, which
   X25519 ignores: the one-bit-altered copy has the same cache key ... *)
Theorem C08_bit255 : forall r, mask255 (flip255 r) = mask255 r.
Proof. exact mask_flip. Qed.
Print Assumptions C08_bit255.
(* ... whereas under the raw 32 bytes (pre-fix) it is a different key and is accepted again *)
Theorem C08_refuted_rawkey :
  (forall r, length r = 32%nat -> rawkey (flip255 r) <> rawkey r) /\
  outcomes rule_fixed rawkey history_F2 = [Some OAccept; Some OAccept] /\
  outcomes rule_fixed mask255 history_F2 = [Some OAccept; Some OReplay].
Proof. exact (conj flip_changes rawkey_unsound). Qed.
Print Assumptions C08_refuted_rawkey.

(* N simultaneous presentations of one packet, registerRandom being one atomic step (it runs under
   usedRandomM): under EVERY schedule at most one thread is ever told "new", and when all N have
   finished exactly one was, the other N-1 got ErrReplay *)
Theorem C08_concurrent :
  forall keyfn p n c sched,
  lookup (keyfn (p_random p)) c = None ->
  let (c', ts') := run_sched true keyfn p c (repeat TStart n) sched in
  (misses ts' <= 1)%nat /\
  ((forall i, (i < n)%nat -> (2 <= count_occ Nat.eq_dec (map fst sched) i)%nat) -> (1 <= n)%nat ->
     Forall is_done ts' /\ misses ts' = 1%nat /\
     length (filter (fun st => match st with TDone OReplay => true | _ => false end) ts') = (n - 1)%nat).
Proof. exact concurrent_exactly_one. Qed.
Print Assumptions C08_concurrent.
(* what the lock is for: lookup and store as two steps let two threads both be accepted *)
Theorem C08_refuted_unlocked :
  let p := pk 1000 in let t := 1000 * ns_per_s in
  snd (run_sched false mask255 p [] [TStart; TStart] [(0, t); (1, t); (0, t); (1, t); (0, t); (1, t)]%nat)
  = [TDone OAccept; TDone OAccept].
Proof. exact unlocked_two_misses. Qed.

(* the same-second premise of C08_cache_sound is necessary: two clock reads straddling a second *)
Theorem C08_two_reads_gap :
  ordered 0 history_two_reads = true /\
  outcomes rule_fixed mask255 history_two_reads = [Some OAccept; None; Some OAccept].
Proof. exact two_reads_gap. Qed.

(* The histories the harness drives on the real State (server started at [start], test sleeping
   and presenting, cleaner every 12 h) are ordered histories with coinciding clock reads, so the
   theorems above speak about exactly what the correspondence check executes. *)
Theorem C08_server_histories_covered : forall start ops,
  sleeps_nonneg ops = true ->
  ordered start (server_history start ops) = true /\
  (forall p t1 t2, In (Present p t1 t2) (server_history start ops) -> t1 = t2) /\
  concat (map fst (run_chunks rule_fixed mask255 [] (chunks start (start + clean_period) ops)))
    = outcomes rule_fixed mask255 (server_history start ops).
Proof.
  exact (fun start ops H => conj (server_history_ordered start ops H)
           (conj (fun p t1 t2 => server_history_same_read ops _ _ p t1 t2) (run_chunks_concat _ _ _ []))).
Qed.
Print Assumptions C08_server_histories_covered.

(* The property's own wording speaks of "the same sealed identity block".  That step is
   cryptographic; it is an explicit hypothesis here (named in the trusted base). *)
Section Sealed.
  Variable opens : list N -> list N -> option Z.
  Hypothesis sealed_block_binds : forall r1 r2 b ts1 ts2,
    opens r1 b = Some ts1 -> opens r2 b = Some ts2 -> mask255 r1 = mask255 r2 /\ ts1 = ts2.

  (* of all presentations of first packets carrying the same sealed block - the packet itself or
     any altered copy - at most one is ever accepted *)
  Theorem C08_at_most_once :
    forall lb0 h1 h2 h3 w t1 t1' w' t2 t2',
    let h := map (abs_event opens) (h1 ++ WPresent w t1 t1' :: h2 ++ WPresent w' t2 t2' :: h3) in
    ordered lb0 h = true ->
    t1 / ns_per_s = t1' / ns_per_s ->
    w_block w' = w_block w ->
    nth_error (outcomes rule_fixed mask255 h) (length h1) = Some (Some OAccept) ->
    nth_error (outcomes rule_fixed mask255 h) (length h1 + 1 + length h2) <> Some (Some OAccept).
  Proof. exact (at_most_once opens sealed_block_binds). Qed.
End Sealed.
Print Assumptions C08_at_most_once.

(* the hypothesis is satisfiable (toy scheme: the block spells out key and timestamp) and the
   theorem's situation occurs *)
Example C08_at_most_once_inhabited :
  (forall r1 r2 b ts1 ts2, toy_opens r1 b = Some ts1 -> toy_opens r2 b = Some ts2 ->
     mask255 r1 = mask255 r2 /\ ts1 = ts2) /\
  let w := mkW true rnd0 (100%N :: mask255 rnd0) in
  let w' := mkW true (flip255 rnd0) (100%N :: mask255 rnd0) in
  outcomes rule_fixed mask255 (map (abs_event toy_opens)
     [WPresent w (100 * ns_per_s) (100 * ns_per_s); WClean (101 * ns_per_s); WPresent w' (102 * ns_per_s) (102 * ns_per_s)])
  = [Some OAccept; None; Some OReplay].
Proof. exact (conj toy_binds toy_accepts_once). Qed.

(* generated obligations about the constants printed by the Go compiler *)
Theorem C08_constants :
  tolerance = 180 * ns_per_s /\ (tolerance mod ns_per_s = 0 /\ 0 < tolerance) /\
  0 < clean_period /\ 2 * tolerance < clean_period.
Proof. exact (conj tolerance_value (conj tolerance_whole_seconds (conj clean_period_pos clean_period_exceeds_retention))). Qed.
