(* Proofs about Model/UserDB.v (property C18).  The codec round trip; with the decoders as they
   are now every reader is total and returns the decoded record [abs_rec]; every handler
   [refines] the abstract finite map; what [connect] returns with and without the rate guard. *)
From Coq Require Import ZArith NArith List Bool Lia.
From Coq Require Import ZifyN ZifyNat ZifyBool.
From Cloak Require Import Model.UserDB.
Import ListNotations.
Local Open Scope Z_scope.

Lemma be_dec_app l b : be_dec (l ++ [b]) = (be_dec l * 256 + b)%N.
Proof. unfold be_dec. rewrite fold_left_app. reflexivity. Qed.

Lemma be_enc_length k : forall n, length (be_enc k n) = k.
Proof. induction k as [|k IH]; intros n; cbn [be_enc]; [reflexivity|].
  rewrite app_length, IH. cbn. lia. Qed.

Definition wf_bytes (l : list N) : Prop := Forall (fun b => (b < 256)%N) l.

Lemma be_enc_wf k : forall n, wf_bytes (be_enc k n).
Proof. induction k as [|k IH]; intros n; cbn [be_enc]; [constructor|].
  apply Forall_app. split; [apply IH|]. constructor; [|constructor].
  apply N.mod_lt. discriminate. Qed.

Lemma be_dec_enc k : forall n, be_dec (be_enc k n) = (n mod 256 ^ N.of_nat k)%N.
Proof.
  induction k as [|k IH]; intros n.
  - cbn. now rewrite N.mod_1_r.
  - cbn [be_enc]. rewrite be_dec_app, IH.
    replace (256 ^ N.of_nat (S k))%N with (256 * 256 ^ N.of_nat k)%N
      by (rewrite Nat2N.inj_succ, N.pow_succ_r'; reflexivity).
    rewrite N.mod_mul_r by (try discriminate; apply N.pow_nonzero; discriminate).
    lia.
Qed.

Lemma be_dec_bound l : wf_bytes l -> (be_dec l < 256 ^ N.of_nat (length l))%N.
Proof.
  induction l as [|b l IH] using rev_ind; intros H.
  - cbn. lia.
  - apply Forall_app in H. destruct H as [Hl Hb]. inversion Hb as [|? ? Hb' _]; subst.
    rewrite be_dec_app, app_length. cbn [length].
    replace (N.of_nat (length l + 1)) with (N.succ (N.of_nat (length l))) by lia.
    rewrite N.pow_succ_r'. specialize (IH Hl). lia.
Qed.

Lemma firstn_wf n l : wf_bytes l -> wf_bytes (firstn n l).
Proof. intros H. rewrite <- (firstn_skipn n l) in H. apply Forall_app in H. apply H. Qed.

(* Uint64 / Uint32 of a slice: the first k bytes, k = 8 or 4 *)
Lemma be_dec_firstn_enc k n : be_dec (firstn k (be_enc k n)) = (n mod 256 ^ N.of_nat k)%N.
Proof. rewrite <- (be_enc_length k n) at 1. rewrite firstn_all. apply be_dec_enc. Qed.

Lemma be_dec_firstn_bound k b :
  wf_bytes b -> (k <= length b)%nat -> (be_dec (firstn k b) < 256 ^ N.of_nat k)%N.
Proof. intros H Hk. rewrite <- (firstn_length_le b Hk) at 2. apply be_dec_bound, firstn_wf, H. Qed.

Lemma u64t_enc n : u64t (be_enc 8 n) = (n mod 18446744073709551616)%N.
Proof. unfold u64t. rewrite be_enc_length. exact (be_dec_firstn_enc 8 n). Qed.
Lemma u32t_enc n : u32t (be_enc 4 n) = (n mod 4294967296)%N.
Proof. unfold u32t. rewrite be_enc_length. exact (be_dec_firstn_enc 4 n). Qed.

Lemma u64t_bound b : wf_bytes b -> (u64t b < 18446744073709551616)%N.
Proof. intros H. unfold u64t. destruct (Nat.ltb_spec (length b) 8) as [_|Hk]; [reflexivity|].
  exact (be_dec_firstn_bound 8 b H Hk). Qed.
Lemma u32t_bound b : wf_bytes b -> (u32t b < 4294967296)%N.
Proof. intros H. unfold u32t. destruct (Nat.ltb_spec (length b) 4) as [_|Hk]; [reflexivity|].
  exact (be_dec_firstn_bound 4 b H Hk). Qed.

(* uintNN(v) is below the modulus; intNN(uintNN(v)) = v on the signed range: two's complement
   with half-modulus M = 2^63 or 2^31 *)
Lemma to_unsigned_bound m v : 0 < m -> (Z.to_N (v mod m) < Z.to_N m)%N.
Proof. intros Hm. pose proof (Z.mod_pos_bound v m Hm). lia. Qed.

Lemma twos_roundtrip M v : - M <= v < M ->
  let z := Z.of_N (Z.to_N (v mod (2 * M))) in (if z <? M then z else z - 2 * M) = v.
Proof.
  intros H. rewrite Z2N.id by (apply Z.mod_pos_bound; lia). cbv zeta.
  destruct (Z.neg_nonneg_cases v) as [Hv|Hv].
  - rewrite <- (Z.mod_add v 1) by lia. rewrite Z.mod_small by lia. destruct (_ <? _) eqn:E; lia.
  - rewrite Z.mod_small by lia. destruct (v <? M) eqn:E; lia.
Qed.

Lemma codec64 v : in_i64 v -> int64_of_be (be_of_int64 v) = v.
Proof. intros H. unfold int64_of_be, be_of_int64. rewrite u64t_enc.
  rewrite N.mod_small by exact (to_unsigned_bound two64 v eq_refl). exact (twos_roundtrip two63 v H). Qed.
Lemma codec32 v : in_i32 v -> int32_of_be (be_of_int32 v) = v.
Proof. intros H. unfold int32_of_be, be_of_int32. rewrite u32t_enc.
  rewrite N.mod_small by exact (to_unsigned_bound two32 v eq_refl). exact (twos_roundtrip two31 v H). Qed.

Lemma to_i64_range n : (n < 18446744073709551616)%N -> in_i64 (to_i64 n).
Proof. unfold in_i64, to_i64, two63, two64. intros H.
  destruct (Z.of_N n <? 9223372036854775808) eqn:E; lia. Qed.
Lemma wrap64_range z : in_i64 (wrap64 z).
Proof. apply to_i64_range. exact (to_unsigned_bound two64 z eq_refl). Qed.
Lemma wrap64_id z : in_i64 z -> wrap64 z = z.
Proof. exact (twos_roundtrip two63 z). Qed.

(* the cap read back unsigned is the signed value modulo 2^32 *)
Lemma cap_unsigned n : (n < 4294967296)%N -> Z.of_N n = to_i32 n mod two32.
Proof. unfold to_i32, two31, two32. intros H. destruct (Z.of_N n <? 2147483648) eqn:E; lia. Qed.

Lemma uid_eqb_spec a : forall b, uid_eqb a b = true <-> a = b.
Proof. induction a as [|x a IH]; intros [|y b]; cbn; try (split; congruence).
  rewrite andb_true_iff, N.eqb_eq, IH. split; [intros [-> ->]; reflexivity | intros H; inversion H; auto]. Qed.
Lemma uid_eqP a b : reflect (a = b) (uid_eqb a b).
Proof. apply iff_reflect. symmetry. apply uid_eqb_spec. Qed.
Lemma uid_eqb_refl a : uid_eqb a a = true.
Proof. now apply uid_eqb_spec. Qed.

Section AlistMap.
Context {A B : Type} (f : A -> B).
Definition amap (s : list (uid * A)) : list (uid * B) := map (fun kv => (fst kv, f (snd kv))) s.
Lemma lookup_amap u s : lookup u (amap s) = option_map f (lookup u s).
Proof. unfold amap. induction s as [|[k v] t IH]; cbn; [reflexivity|]. destruct (uid_eqb u k); [reflexivity|exact IH]. Qed.
Lemma bucket_amap u s : bucket u (amap s) = option_map f (bucket u s).
Proof. unfold bucket. destruct (is_nil u); [reflexivity|apply lookup_amap]. Qed.
Lemma put_amap u v s : put u (f v) (amap s) = amap (put u v s).
Proof. unfold amap. induction s as [|[k w] t IH]; cbn; [reflexivity|]. destruct (uid_eqb u k); cbn; [reflexivity|].
  now rewrite IH. Qed.
Lemma remove_amap u s : remove u (amap s) = amap (remove u s).
Proof. unfold remove, amap. induction s as [|[k w] t IH]; cbn; [reflexivity|].
  destruct (uid_eqb u k); cbn; [exact IH|]. now rewrite IH. Qed.
End AlistMap.

Section AlistSpec.
Context {A : Type}.
Implicit Types s : list (uid * A).
Lemma lookup_put u u' v s : lookup u (put u' v s) = if uid_eqb u u' then Some v else lookup u s.
Proof. induction s as [|[k w] t IH]; cbn; [reflexivity|].
  destruct (uid_eqP u' k) as [->|Hk]; cbn; [now destruct (uid_eqb u k)|].
  rewrite IH. destruct (uid_eqP u k) as [->|]; [|reflexivity]. destruct (uid_eqP k u'); congruence. Qed.
Lemma lookup_remove u u' s : lookup u (remove u' s) = if uid_eqb u u' then None else lookup u s.
Proof. unfold remove. induction s as [|[k w] t IH]; cbn; [now destruct (uid_eqb u u')|].
  destruct (uid_eqP u' k) as [->|Hk]; cbn; rewrite IH; [now destruct (uid_eqb u k)|].
  destruct (uid_eqP u k) as [->|]; [|reflexivity]. destruct (uid_eqP k u'); congruence. Qed.
Definition keys s : list uid := map fst s.
Lemma keys_put_in u v s k : In k (keys (put u v s)) <-> k = u \/ In k (keys s).
Proof. unfold keys. induction s as [|[k' w] t IH]; cbn; [intuition|].
  destruct (uid_eqP u k') as [->|]; cbn; [|rewrite IH]; intuition. Qed.
Lemma keys_put_nodup u v s : NoDup (keys s) -> NoDup (keys (put u v s)).
Proof. unfold keys. induction s as [|[k' w] t IH]; cbn; intros H.
  - constructor; [intros []|constructor].
  - inversion H as [|? ? Hn Ht]; subst. destruct (uid_eqP u k') as [->|Hk]; cbn; constructor; auto.
    intros Hin. apply (keys_put_in u v t k') in Hin. destruct Hin; [congruence|contradiction]. Qed.
Lemma keys_remove u s : keys (remove u s) = filter (fun k => negb (uid_eqb u k)) (keys s).
Proof. unfold keys, remove. induction s as [|[k w] t IH]; cbn; [reflexivity|].
  destruct (uid_eqb u k); cbn; now rewrite IH. Qed.
Lemma keys_remove_nodup u s : NoDup (keys s) -> NoDup (keys (remove u s)).
Proof. rewrite keys_remove. apply NoDup_filter. Qed.
Lemma in_lookup u v s : NoDup (keys s) -> (In (u, v) s <-> lookup u s = Some v).
Proof. unfold keys. induction s as [|[k w] t IH]; cbn; intros H; [split; [intros []|discriminate]|].
  inversion H as [|? ? Hn Ht]; subst. destruct (uid_eqP u k) as [->|Hk].
  - split; [|intros [= ->]; now left]. intros [[= ->]|Hin]; [reflexivity|].
    destruct Hn. exact (in_map fst _ _ Hin).
  - rewrite <- (IH Ht). split; [intros [[= <- _]|Hin]; [congruence|exact Hin]|auto]. Qed.
End AlistSpec.

(* the decoders as they are now never panic; what they return *)
Lemma u64_fixed b : u64 true b = Ok (u64t b).
Proof. unfold u64, u64t. now destruct (length b <? 8)%nat. Qed.
Lemma u32_fixed b : u32 true b = Ok (u32t b).
Proof. unfold u32, u32t. now destruct (length b <? 4)%nat. Qed.
Lemma rd_i64_fixed f r : rd_i64 true f r = Ok (int64_of_be (getb f r)).
Proof. unfold rd_i64. now rewrite u64_fixed. Qed.
Lemma rd_cap_signed_fixed r : rd_cap_signed true r = Ok (int32_of_be (getb FCap r)).
Proof. unfold rd_cap_signed. now rewrite u32_fixed. Qed.
Lemma rd_cap_unsigned_fixed r : rd_cap_unsigned true r = Ok (Z.of_N (u32t (getb FCap r))).
Proof. unfold rd_cap_unsigned. now rewrite u32_fixed. Qed.
Lemma read_vals_fixed r : read_vals true r = Ok (abs_rec r).
Proof. unfold read_vals. rewrite rd_cap_signed_fixed, !rd_i64_fixed. reflexivity. Qed.
Lemma list_all_fixed s : list_all true s = Ok (abs_store s).
Proof. induction s as [|[u r] t IH]; cbn [list_all]; [reflexivity|].
  rewrite read_vals_fixed. cbn [bind]. rewrite IH. reflexivity. Qed.

(* well-formed stores: every stored value is a string of bytes *)
Definition wf_opt (o : option (list N)) : Prop := match o with Some b => wf_bytes b | None => True end.
Definition wf_rec (r : rec) : Prop := forall f, wf_opt (getf f r).
Definition store_wf (s : store) : Prop := Forall (fun kv => wf_rec (snd kv)) s.

Definition field_eqb (f g : field) : bool :=
  match f, g with
  | FCap, FCap | FUpRate, FUpRate | FDownRate, FDownRate | FUpCredit, FUpCredit
  | FDownCredit, FDownCredit | FExpiry, FExpiry => true
  | _, _ => false
  end.
Lemma getf_setf f g v r : getf f (setf g v r) = if field_eqb f g then Some v else getf f r.
Proof. destruct f, g; reflexivity. Qed.
Lemma getb_setf f g v r : getb f (setf g v r) = if field_eqb f g then v else getb f r.
Proof. unfold getb. rewrite getf_setf. now destruct (field_eqb f g). Qed.
Lemma getb_put_opt f g enc o r :
  getb f (put_opt g enc o r) =
  match (if field_eqb f g then o else None) with Some v => enc v | None => getb f r end.
Proof. destruct o as [v|]; cbn [put_opt]; [rewrite getb_setf|]; now destruct (field_eqb f g). Qed.
Lemma wf_setf g v r : wf_bytes v -> wf_rec r -> wf_rec (setf g v r).
Proof. intros Hv Hr f. rewrite getf_setf. destruct (field_eqb f g); [exact Hv|apply Hr]. Qed.
Lemma wf_rec_empty : wf_rec rec_empty.
Proof. intros []; exact I. Qed.
Lemma wf_put_opt f enc o r : (forall v, wf_bytes (enc v)) -> wf_rec r -> wf_rec (put_opt f enc o r).
Proof. intros He Hr. destruct o; cbn; [apply wf_setf; auto|exact Hr]. Qed.
Lemma wf_write_rec w r : wf_rec r -> wf_rec (write_rec w r).
Proof. intros H. unfold write_rec.
  repeat (apply wf_put_opt; [intros v; apply be_enc_wf|]). exact H. Qed.
Lemma wf_getb f r : wf_rec r -> wf_bytes (getb f r).
Proof. intros H. unfold getb. specialize (H f). destruct (getf f r); [exact H|constructor]. Qed.

Lemma store_wf_lookup u s r : store_wf s -> lookup u s = Some r -> wf_rec r.
Proof. induction s as [|[k v] t IH]; cbn; intros H E; [discriminate|].
  inversion H; subst. destruct (uid_eqb u k); [inversion E; subst; assumption|auto]. Qed.
Lemma store_wf_bucket u s r : store_wf s -> bucket u s = Some r -> wf_rec r.
Proof. unfold bucket. destruct (is_nil u); [discriminate|apply store_wf_lookup]. Qed.
Lemma store_wf_put u r s : store_wf s -> wf_rec r -> store_wf (put u r s).
Proof. induction s as [|[k v] t IH]; cbn; intros H Hr.
  - constructor; [exact Hr|constructor].
  - inversion H as [|? ? Hh Ht]; subst. destruct (uid_eqb u k); constructor; cbn in *; auto.
    apply IH; assumption. Qed.
Lemma store_wf_remove u s : store_wf s -> store_wf (remove u s).
Proof. apply incl_Forall, incl_filter. Qed.

Lemma dec_opt_write (P : Z -> Prop) (dec : list N -> Z) (enc : Z -> list N) o b :
  (forall v, P v -> dec (enc v) = v) -> opt_ok P o ->
  dec (match o with Some v => enc v | None => b end) = ov o (dec b).
Proof. intros Hc Ho. destruct o as [v|]; [exact (Hc v Ho)|reflexivity]. Qed.

(* WriteUserInfo then decode = merge: each key is written by its own Put only *)
Lemma abs_write_rec w r : wrec_ok w -> abs_rec (write_rec w r) = merge w (abs_rec r).
Proof.
  intros (Hc & Ha & Hb & Hd & He & Hx).
  unfold abs_rec, merge, write_rec. rewrite !getb_put_opt. cbn [field_eqb].
  f_equal; [apply (dec_opt_write in_i32) | apply (dec_opt_write in_i64) ..];
    auto using codec32, codec64.
Qed.

Lemma abs_rec_empty : abs_rec rec_empty = vals_zero.
Proof. reflexivity. Qed.

(* every handler, with the decoders as they are now, computes the abstract answer
   ([abs_store s] is [amap abs_rec s]) *)
Lemma authenticate_fixed now s u : authenticate true now s u = Ok (a_auth now (abs_store s) u).
Proof. unfold authenticate, a_auth. rewrite (bucket_amap abs_rec).
  destruct (bucket u s) as [r|]; cbn [option_map]; [|reflexivity].
  rewrite !rd_i64_fixed. cbn [bind]. unfold abs_rec. cbn [v_upcredit v_downcredit v_expiry v_uprate v_downrate].
  reflexivity. Qed.

Lemma authorise_fixed now s u n : store_wf s ->
  authorise true now s u n = Ok (a_sess now (abs_store s) u n).
Proof. intros Hwf. unfold authorise, a_sess. rewrite (bucket_amap abs_rec).
  destruct (bucket (pad16 u) s) as [r|] eqn:E; cbn [option_map]; [|reflexivity].
  rewrite rd_cap_unsigned_fixed, !rd_i64_fixed. cbn [bind]. unfold abs_rec.
  cbn [v_upcredit v_downcredit v_expiry v_cap]. unfold int32_of_be.
  rewrite <- cap_unsigned; [reflexivity|].
  apply u32t_bound, wf_getb. eapply store_wf_bucket; eassumption. Qed.

Lemma get_user_fixed s p : get_user true s p = Ok (a_get (abs_store s) p).
Proof. unfold get_user, a_get. destruct p as [|u]; [reflexivity|].
  rewrite (bucket_amap abs_rec). destruct (bucket u s) as [r|]; cbn [option_map]; [|reflexivity].
  rewrite read_vals_fixed. reflexivity. Qed.

Lemma upload_one_fixed now u a b r :
  exists r2, upload_one true now u a b r = Ok (r2, snd (a_upload_one now u a b (abs_rec r)))
          /\ abs_rec r2 = fst (a_upload_one now u a b (abs_rec r)) /\ (wf_rec r -> wf_rec r2).
Proof.
  unfold upload_one. rewrite rd_i64_fixed. cbn [bind]. rewrite rd_i64_fixed. cbn [bind].
  rewrite rd_i64_fixed. cbn [bind]. rewrite !getb_setf. cbn [field_eqb].
  eexists. split; [reflexivity|]. split.
  - unfold a_upload_one, abs_rec. cbn [fst v_cap v_uprate v_downrate v_upcredit v_downcredit v_expiry].
    rewrite !getb_setf. cbn [field_eqb]. rewrite !codec64 by apply wrap64_range. reflexivity.
  - intros Hwf. apply wf_setf; [apply be_enc_wf|]. apply wf_setf; [apply be_enc_wf|exact Hwf].
Qed.

(* a result of the real handlers refines the abstract one: same observation, the new store
   decodes to the new map and is well formed again *)
Definition refines {B} (o : outcome (store * B)) (a : astore * B) : Prop :=
  exists s', o = Ok (s', snd a) /\ abs_store s' = fst a /\ store_wf s'.
Lemma refines_ret {B} s (b : B) : store_wf s -> refines (Ok (s, b)) (abs_store s, b).
Proof. intros H. exists s. auto. Qed.
Lemma refines_obs {B C} (g : B -> C) o a :
  refines o a -> refines (q <- o ;; Ok (fst q, g (snd q))) (fst a, g (snd a)).
Proof. intros (s' & -> & E & H). exists s'. auto. Qed.

Lemma upload_sim now l : forall s, store_wf s ->
  refines (upload true now s l) (a_upload now (abs_store s) l).
Proof.
  induction l as [|x t IH]; intros s Hwf; cbn [upload a_upload]; [now apply refines_ret|].
  rewrite (bucket_amap abs_rec). destruct (bucket (up_uid x) s) as [r|] eqn:E; cbn [option_map].
  - destruct (upload_one_fixed now (up_uid x) (up_up x) (up_down x) r) as (r2 & E1 & E2 & Hw2).
    rewrite E1, <- E2, (put_amap abs_rec). cbn [bind fst snd].
    apply (refines_obs (app _)), IH, store_wf_put, Hw2; [exact Hwf|]. eapply store_wf_bucket; eassumption.
  - exact (refines_obs (cons _) _ _ (IH s Hwf)).
Qed.

Lemma post_sim s p b : store_wf s -> op_ok (OReq (RqPost p b)) ->
  refines (Ok (post s p b)) (a_post (abs_store s) p b).
Proof.
  intros Hwf Hok. unfold post, a_post.
  destruct p as [|u]; [now apply refines_ret|]. destruct b as [|bu w]; [now apply refines_ret|].
  destruct (negb (uid_eqb u bu)); [now apply refines_ret|]. destruct (is_nil bu); [now apply refines_ret|].
  cbn in Hok. eexists. split; [reflexivity|]. cbn [fst]. rewrite (lookup_amap abs_rec), <- (put_amap abs_rec).
  destruct (lookup bu s) as [r|] eqn:E; cbn [option_map]; rewrite abs_write_rec by exact Hok;
    (split; [reflexivity|]); apply store_wf_put, wf_write_rec; trivial.
  - eapply store_wf_lookup; eassumption.
  - apply wf_rec_empty.
Qed.

Lemma delete_sim s p : store_wf s -> refines (Ok (delete s p)) (a_delete (abs_store s) p).
Proof.
  intros Hwf. unfold delete, a_delete. destruct p as [|u]; [now apply refines_ret|].
  rewrite (bucket_amap abs_rec). destruct (bucket u s); cbn [option_map]; [|now apply refines_ret].
  rewrite (remove_amap abs_rec). now apply refines_ret, store_wf_remove.
Qed.

Lemma step_sim now s o : store_wf s -> op_ok o ->
  refines (step true now s o) (a_step now (abs_store s) o).
Proof.
  intros Hwf Hok. destruct o as [[|p|p b|p|]| |l|u|u n]; cbn [step a_step].
  - rewrite list_all_fixed. now apply refines_ret.
  - rewrite get_user_fixed. now apply refines_ret.
  - exact (refines_obs ObResp _ _ (post_sim s p b Hwf Hok)).
  - exact (refines_obs ObResp _ _ (delete_sim s p Hwf)).
  - now apply refines_ret.
  - now apply refines_ret.
  - exact (refines_obs ObUpload _ _ (upload_sim now l s Hwf)).
  - rewrite authenticate_fixed. now apply refines_ret.
  - rewrite authorise_fixed by exact Hwf. now apply refines_ret.
Qed.

Lemma run_sim now ops : forall s, store_wf s -> Forall op_ok ops ->
  refines (run true now s ops) (a_run now (abs_store s) ops).
Proof.
  induction ops as [|o t IH]; intros s Hwf Hok; cbn [run a_run]; [now apply refines_ret|].
  inversion Hok as [|? ? Ho Ht]; subst.
  destruct (step_sim now s o Hwf Ho) as (s1 & E1 & E2 & E3). rewrite E1, <- E2. cbn [bind fst snd].
  now apply (refines_obs (cons _)), IH.
Qed.

Lemma store_wf_nil : store_wf [].
Proof. constructor. Qed.

(* the abstract specification is a finite map: keys stay distinct *)
Lemma a_upload_keys now l : forall m, NoDup (keys m) -> NoDup (keys (fst (a_upload now m l))).
Proof. induction l as [|x t IH]; intros m H; cbn [a_upload]; [exact H|].
  destruct (bucket (up_uid x) m); cbn [fst]; apply IH; [now apply keys_put_nodup|exact H]. Qed.
Lemma a_step_keys now m o : NoDup (keys m) -> NoDup (keys (fst (a_step now m o))).
Proof. intros H. destruct o as [[|p|p b|p|]| |l|u|u n]; cbn [a_step fst]; try exact H.
  - unfold a_post. destruct p; [exact H|]. destruct b; [exact H|].
    destruct (negb _); [exact H|]. destruct (is_nil _); [exact H|]. now apply keys_put_nodup.
  - unfold a_delete. destruct p; [exact H|]. destruct (bucket _ _); [|exact H]. now apply keys_remove_nodup.
  - now apply a_upload_keys. Qed.
Lemma a_run_keys now ops : forall m, NoDup (keys m) -> NoDup (keys (fst (a_run now m ops))).
Proof. induction ops as [|o t IH]; intros m H; cbn [a_run fst]; [exact H|].
  apply IH. now apply a_step_keys. Qed.

(* no panic, for EVERY store (well-formed or not), with the decoders as they are now *)
Lemma bind_total {A B} (o : outcome A) (f : A -> outcome B) :
  (exists a, o = Ok a) -> (forall a, exists b, f a = Ok b) -> exists b, bind o f = Ok b.
Proof. intros [a ->] Hf. apply Hf. Qed.
Lemma total_no_panic {A} (o : outcome A) : (exists a, o = Ok a) -> o <> Panic.
Proof. intros [a ->]. discriminate. Qed.

Lemma authorise_total now s u n : exists e, authorise true now s u n = Ok e.
Proof. unfold authorise. destruct (bucket (pad16 u) s); [|eauto].
  rewrite rd_cap_unsigned_fixed, !rd_i64_fixed. cbn [bind]. eauto. Qed.
Lemma upload_one_total now u a b r : exists q, upload_one true now u a b r = Ok q.
Proof. destruct (upload_one_fixed now u a b r) as (r2 & E & _). eauto. Qed.
Lemma upload_total now l : forall s, exists q, upload true now s l = Ok q.
Proof. induction l as [|x t IH]; intros s; cbn [upload]; [eauto|].
  destruct (bucket (up_uid x) s) as [r|].
  - apply bind_total; [apply upload_one_total|]. intros q. apply bind_total; [apply IH|eauto].
  - apply bind_total; [apply IH|eauto]. Qed.
Lemma step_total now s o : exists q, step true now s o = Ok q.
Proof. destruct o as [[|p|p b|p|]| |l|u|u n]; cbn [step]; eauto; (apply bind_total; [|eauto]).
  - rewrite list_all_fixed. eauto.
  - rewrite get_user_fixed. eauto.
  - apply upload_total.
  - rewrite authenticate_fixed. eauto.
  - apply authorise_total. Qed.
Lemma run_total now ops : forall s, exists q, run true now s ops = Ok q.
Proof. induction ops as [|o t IH]; intros s; cbn [run]; [eauto|].
  apply bind_total; [apply step_total|]. intros q. apply bind_total; [apply IH|eauto]. Qed.

Lemma no_panic_fixed now s :
  (forall u, authenticate true now s u <> Panic) /\
  (forall u n, authorise true now s u n <> Panic) /\
  (forall p, get_user true s p <> Panic) /\
  list_all true s <> Panic /\
  (forall l, upload true now s l <> Panic).
Proof. repeat split; intros; apply total_no_panic.
  - rewrite authenticate_fixed. eauto.
  - apply authorise_total.
  - rewrite get_user_fixed. eauto.
  - rewrite list_all_fixed. eauto.
  - apply upload_total. Qed.

(* what GetUser -> MakeValve -> GetSession comes to: the only panic is MakeValve on a rate that
   is not positive, and it is reached only without the guard *)
Lemma connect_cases now s u : exists e, authorise true now s u 0 = Ok e /\ forall guard,
  connect guard true now s u =
  match a_auth now (abs_store s) u with
  | AuthErr e' => Ok (CnAuthErr e')
  | AuthOk up down =>
      if (0 <? up) && (0 <? down) then Ok (match e with Some e => CnSessErr e | None => CnOk up down end)
      else if guard then Ok (CnAuthErr ErrBadRate) else Panic
  end.
Proof.
  destruct (authorise_total now s u 0) as [e E]. exists e. split; [exact E|]. intros guard.
  unfold connect, make_valve. rewrite authenticate_fixed, E. cbn [bind].
  destruct (a_auth now (abs_store s) u) as [up down|e']; [|reflexivity].
  destruct ((0 <? up) && (0 <? down)); [now rewrite andb_false_r|now destruct guard]. Qed.

Lemma connect_guarded_total now s u : exists c, connect true true now s u = Ok c.
Proof. destruct (connect_cases now s u) as (e & _ & H). rewrite H.
  destruct (a_auth now (abs_store s) u) as [up down|e']; [destruct (_ && _)|]; eauto. Qed.

Lemma connect_use_total now s u rx tx : exists q, connect_use true true now s u rx tx = Ok q.
Proof.
  unfold connect_use. apply bind_total; [apply connect_guarded_total|].
  intros [e|e|up down]; [eauto| |]; (apply bind_total; [apply upload_total|]); [eauto|].
  intros q1. apply bind_total; [apply upload_total|eauto]. Qed.

Lemma credit_checks_not_badrate a b c d : credit_checks a b c d <> Some ErrBadRate.
Proof. unfold credit_checks. destruct (a <=? 0), (b <=? 0), (c <? d); discriminate. Qed.
Lemma a_auth_not_badrate now m u : a_auth now m u <> AuthErr ErrBadRate.
Proof. unfold a_auth. destruct (bucket u m) as [v|]; [|discriminate].
  destruct (credit_checks _ _ _ _) as [e|] eqn:E; [|discriminate].
  intros [= ->]. exact (credit_checks_not_badrate _ _ _ _ E). Qed.

(* the record passes AuthenticateUser and one of its rates is not positive: exactly then the
   unguarded path panics (guard = false) and the guarded one answers ErrBadRate (guard = true) *)
Lemma connect_badrate_iff guard now s u :
  connect guard true now s u = (if guard then Ok (CnAuthErr ErrBadRate) else Panic) <->
  exists up down, authenticate true now s u = Ok (AuthOk up down) /\ (up <= 0 \/ down <= 0).
Proof.
  destruct (connect_cases now s u) as (e & _ & H). rewrite H, authenticate_fixed.
  destruct (a_auth now (abs_store s) u) as [up down|e'] eqn:Ea; [destruct (_ && _) eqn:R|].
  - split; [destruct guard, e; discriminate|]. intros (up' & down' & [= <- <-] & Hle). lia.
  - split; [|reflexivity]. intros _. exists up, down. split; [reflexivity|lia].
  - split; [|intros (up' & down' & [=] & _)]. destruct guard; [|discriminate].
    intros [= ->]. now apply a_auth_not_badrate in Ea.
Qed.

Lemma connect_guard_agree now s u c : connect false true now s u = Ok c -> connect true true now s u = Ok c.
Proof. destruct (connect_cases now s u) as (e & _ & H). rewrite !H.
  destruct (a_auth now (abs_store s) u) as [up down|e']; [destruct (_ && _)|]; [auto|discriminate|auto]. Qed.

Definition accepted (r : resp) : bool :=
  match r with RsStatus c => (200 <=? c) && (c <? 300) | _ => true end.

Lemma a_post_merges m u w : u <> [] ->
  a_post m (PUid u) (BJson u w) =
  (put u (merge w (match lookup u m with Some v => v | None => vals_zero end)) m, RsStatus 201).
Proof. intros Hu. unfold a_post. rewrite uid_eqb_refl. cbn [negb]. destruct u; [congruence|reflexivity]. Qed.

Lemma a_post_rejected m p b : accepted (snd (a_post m p b)) = false -> fst (a_post m p b) = m.
Proof. unfold a_post. destruct p; [reflexivity|]. destruct b; [reflexivity|].
  destruct (negb _); [reflexivity|]. destruct (is_nil _); [reflexivity|]. cbn. discriminate. Qed.
Lemma a_delete_rejected m p : accepted (snd (a_delete m p)) = false -> fst (a_delete m p) = m.
Proof. unfold a_delete. destruct p; [reflexivity|]. destruct (bucket _ _); [|reflexivity]. cbn. discriminate. Qed.

Lemma a_delete_accepted m u :
  accepted (snd (a_delete m (PUid u))) = true -> lookup u (fst (a_delete m (PUid u))) = None.
Proof. unfold a_delete. destruct (bucket u m); cbn [fst snd accepted]; [|cbn; discriminate].
  intros _. rewrite lookup_remove, uid_eqb_refl. reflexivity. Qed.

Lemma a_run_listing now ops : let m := fst (a_run now [] ops) in
  NoDup (keys m) /\ forall u v, In (u, v) m <-> lookup u m = Some v.
Proof. intros m. assert (H : NoDup (keys m)) by (apply a_run_keys; constructor).
  split; [exact H|]. intros u v. now apply in_lookup. Qed.

(* close + reopen anywhere in a history changes no other observation and not the final store *)
Definition is_reopen (o : op) : bool := match o with OReopen => true | _ => false end.
Definition is_obreopen (b : obs) : bool := match b with ObReopen => true | _ => false end.
Definition drop_reopen (ops : list op) : list op := filter (fun o => negb (is_reopen o)) ops.
Definition drop_obreopen (os : list obs) : list obs := filter (fun b => negb (is_obreopen b)) os.

Lemma bind_Ok {A B} (o : outcome A) (f : A -> outcome B) b :
  bind o f = Ok b -> exists a, o = Ok a /\ f a = Ok b.
Proof. destruct o as [a|]; [eauto|discriminate]. Qed.

Lemma step_obs_not_reopen fx now s o s1 ob :
  step fx now s o = Ok (s1, ob) -> is_reopen o = false -> is_obreopen ob = false.
Proof.
  destruct o as [[|p|p b|p|]| |l|u|u n]; cbn [step is_reopen]; intros E H; try discriminate H;
    try (apply bind_Ok in E as (a & _ & E)); injection E as _ <-; reflexivity.
Qed.

Lemma persist fx now ops : forall s,
  run fx now s (drop_reopen ops) =
  match run fx now s ops with
  | Ok q => Ok (fst q, drop_obreopen (snd q))
  | Panic => Panic
  end.
Proof.
  induction ops as [|o t IH]; intros s; [reflexivity|].
  destruct (is_reopen o) eqn:Er.
  - destruct o; try discriminate. cbn [drop_reopen filter is_reopen negb run step bind fst snd reopen].
    unfold reopen. fold (drop_reopen t). rewrite IH. destruct (run fx now s t) as [q|]; reflexivity.
  - unfold drop_reopen. cbn [filter]. rewrite Er. cbn [negb run]. fold (drop_reopen t).
    destruct (step fx now s o) as [[s1 ob]|] eqn:E; cbn [bind fst snd]; [|reflexivity].
    rewrite IH. destruct (run fx now s1 t) as [q|]; cbn [bind fst snd]; [|reflexivity].
    unfold drop_obreopen. cbn [filter]. rewrite (step_obs_not_reopen _ _ _ _ _ _ E Er). reflexivity.
Qed.

(* F7 (fixed by cd5140b): a record created with a subset of the fields *)
Definition wit_partial : list op :=
  [OReq (RqPost (PUid [1%N]) (BJson [1%N] (mkW None None None (Some 5) None None)))].
Definition wit_uid16 : uid := [1;2;3;4;5;6;7;8;9;10;11;12;13;14;15;16]%N.

(* F8 (fixed by 638655d): credits and expiry only - the rates read as 0 *)
Definition wit_zero_rate : list op :=
  [OReq (RqPost (PUid wit_uid16) (BJson wit_uid16 (mkW (Some 5) None None (Some 1000) (Some 1000) (Some 100))))].
Definition wit_neg_rate : list op :=
  [OReq (RqPost (PUid wit_uid16) (BJson wit_uid16 (mkW (Some 5) (Some 10) (Some (-1)) (Some 1000) (Some 1000) (Some 100))))].

Lemma wit_zero_rate_ok : Forall op_ok wit_zero_rate.
Proof. repeat constructor; cbn; unfold in_i32, in_i64, two31, two63; lia. Qed.
Lemma wit_neg_rate_ok : Forall op_ok wit_neg_rate.
Proof. repeat constructor; cbn; unfold in_i32, in_i64, two31, two63; lia. Qed.

Lemma makevalve_refuted :
  ~ (forall now ops u s os, Forall op_ok ops -> run true now [] ops = Ok (s, os) ->
       connect false true now s u <> Panic).
Proof. intros H. eapply (H 50 wit_zero_rate wit_uid16);
  [exact wit_zero_rate_ok | vm_compute; reflexivity | vm_compute; reflexivity]. Qed.

Lemma partial_no_panic_positive_rates now s u :
  (forall up down, authenticate true now s u = Ok (AuthOk up down) -> 0 < up /\ 0 < down) ->
  connect false true now s u <> Panic.
Proof. intros H E. apply (connect_badrate_iff false) in E. destruct E as (up & down & Ha & Hle).
  specialize (H _ _ Ha). lia. Qed.

Definition wit_good : list op :=
  [OReq (RqPost (PUid wit_uid16) (BJson wit_uid16 (mkW (Some 5) (Some 100) (Some 1000) (Some 10000) (Some 100000) (Some 1000000))))].
Lemma example_positive_rates :
  exists s os, run true 50 [] wit_good = Ok (s, os)
    /\ (forall up down, authenticate true 50 s wit_uid16 = Ok (AuthOk up down) -> 0 < up /\ 0 < down)
    /\ connect false true 50 s wit_uid16 = Ok (CnOk 100 1000).
Proof. eexists. eexists. split; [vm_compute; reflexivity|]. split; [|vm_compute; reflexivity].
  intros up down H. vm_compute in H. inversion H. lia. Qed.

(* the hypotheses of run_sim are met by the empty store and a history over the witnesses *)
Lemma example_refines_hyps : store_wf [] /\ Forall op_ok (wit_good ++ wit_neg_rate ++ [OReq RqList; OReopen; OUpload [mkUpd wit_uid16 7 8]]).
Proof. split; [constructor|]. repeat constructor; cbn; unfold in_i32, in_i64, two31, two63; lia. Qed.
