(* C17, first half: no reachable state of any number of threads is a deadlock.  What is proved
   (for the repaired order, prefix_order c = false): a holder of ActiveUser.sessionsM or of
   activeUsersM never asks for a lock, and a holder of usageUpdateQueueM asks only for one of
   those two; so the owner of a busy lock runs, or waits for a lock whose owner runs.  LInv (who
   owns a lock is at a pc that holds it) and its preservation hold for both orders.
   Go's RWMutex gives a waiting writer preference over new readers; the argument below only
   uses "a lock that cannot be taken has an owner whose program counter says it holds it", which
   is also true with writer preference (a reader refused because of a waiting writer: that
   writer waits for the current owners). *)
From Coq Require Import ZArith NArith List Bool Lia Arith.
From Cloak Require Import Model.Panel.
Import ListNotations.

Ltac sim :=
  cbn [table nrec recs nses sess queue db now lkQ lkA lkS nthr thr g_cnt g_chg g_nou g_adm g_log
       set_table set_nrec set_recs set_nses set_sess set_queue set_db set_now set_lkQ set_lkA set_lkS
       set_nthr set_thr set_g_cnt set_g_chg set_g_nou set_g_adm set_g_log goto set_rec set_lkS1
       rw_w rw_r rw_lock rw_unlock rw_rlock rw_runlock] in *.

(* which locks a program counter holds *)
Definition holdsQ (c : cfg) (p : pc) : bool :=
  match p with
  | TN2 _ _ _ _ | U2 _ | M1 _ _ | M2 _ _ _ | M3 _ _ _ _ | M4 _ _ _ _ | M5 _ _ _ | M6 _ _ _ => true
  | U1 _ => negb (prefix_order c)
  | _ => false
  end.
Definition holdsAW (c : cfg) (p : pc) : bool :=
  match p with
  | D1 _ _ | TD1 _ _ _ | U2 _ => true
  | U1 _ => prefix_order c
  | _ => false
  end.
Definition holdsAR (p : pc) : bool :=
  match p with M2 _ _ _ | M6 _ _ _ | M10 _ _ => true | _ => false end.
Definition holdsSW (p : pc) (r : nat) : bool :=
  match p with
  | D3 _ _ r' | C1 r' _ | TC1 r' _ _ => Nat.eqb r' r
  | _ => false
  end.
Definition holdsSR (p : pc) (r : nat) : bool :=
  match p with M4 _ r' _ _ => Nat.eqb r' r | _ => false end.

(* the lock invariant: whoever owns a lock is a live thread at a pc that holds it *)
Record LInv (c : cfg) (s : state) : Prop := {
  li_Q : forall t, lkQ s = Some t -> t < nthr s /\ holdsQ c (thr s t) = true;
  li_AW : forall t, rw_w (lkA s) = Some t -> t < nthr s /\ holdsAW c (thr s t) = true;
  li_AR : forall t, In t (rw_r (lkA s)) -> t < nthr s /\ holdsAR (thr s t) = true;
  li_SW : forall r t, rw_w (lkS s r) = Some t -> t < nthr s /\ holdsSW (thr s t) r = true;
  li_SR : forall r t, In t (rw_r (lkS s r)) -> t < nthr s /\ holdsSR (thr s t) r = true
}.

Lemma LInv_init : forall c d nw, LInv c (init d nw).
Proof. intros; constructor; cbn; intros; try discriminate; try contradiction. Qed.

Lemma upd_same : forall A (f : nat -> A) i x, upd f i x i = x.
Proof. intros; unfold upd; now rewrite Nat.eqb_refl. Qed.
Lemma upd_other : forall A (f : nat -> A) i x j, j <> i -> upd f i x j = f j.
Proof. intros; unfold upd; destruct (Nat.eqb_spec j i); congruence. Qed.

Lemma in_filter_ne : forall t t1 l,
  In t1 (filter (fun x => negb (Nat.eqb x t)) l) -> In t1 l /\ t1 <> t.
Proof.
  intros t t1 l H. apply filter_In in H. destruct H as [H1 H2]. split; auto.
  destruct (Nat.eqb_spec t1 t); [discriminate | assumption].
Qed.

(* a program counter that holds nothing *)
Definition holds_none (c : cfg) (p : pc) : Prop :=
  holdsQ c p = false /\ holdsAW c p = false /\ holdsAR p = false
  /\ (forall r, holdsSW p r = false) /\ (forall r, holdsSR p r = false).

(* between the parts of TerminateActiveUser nothing is held; m9 k is seq_pc [] r k and
   term_enter c r k is seq_pc (phases c) r k *)
Lemma seq_pc_none : forall c rest r k, holds_none c (seq_pc rest r k).
Proof. intros; destruct rest as [|[] ?]; [destruct k|..]; repeat split. Qed.

Lemma rw_can_w_true : forall l, rw_can_w l = true -> rw_w l = None /\ rw_r l = [].
Proof. intros [w r]; unfold rw_can_w; cbn; destruct w, r; intros; try discriminate; auto. Qed.
Lemma rw_can_r_true : forall l, rw_can_r l = true -> rw_w l = None.
Proof. intros [w r]; unfold rw_can_r; cbn; destruct w; intros; try discriminate; auto. Qed.

(* ------------------------------------------------------------------ preservation *)
(* case split of one thread step: one goal per branch of tstep, s' replaced by its value *)
Ltac tstep_cases H c s t :=
  unfold tstep in H;
  destruct (thr s t) eqn:Hpc; try discriminate;
  repeat match type of H with
  | context [match ?l with [] => _ | _ :: _ => _ end] => destruct l eqn:?
  | context [if rw_can_w ?l then _ else _] => destruct (rw_can_w l); [|discriminate]
  | context [if rw_can_r ?l then _ else _] => destruct (rw_can_r l); [|discriminate]
  | context [match lkQ s with _ => _ end] => destruct (lkQ s); [discriminate|]
  | context [if prefix_order c then _ else _] => destruct (prefix_order c) eqn:?
  | context [match table s ?u with _ => _ end] => destruct (table s u) eqn:?
  | context [if ?b then _ else _] => destruct b eqn:?
  | context [match authenticate ?a ?b ?d with _ => _ end] => destruct (authenticate a b d) eqn:?
  | context [match slook ?a ?b with _ => _ end] => destruct (slook a b) eqn:?
  | context [match authorise ?a ?b ?d ?e with _ => _ end] => destruct (authorise a b d e) eqn:?
  | context [let '(_, _) := ?x in _] => destruct x eqn:?
  end;
  try discriminate;
  try (injection H as H; subst).

(* what a lock field becomes when the moving thread goes from a pc that holds it ([was]) or not
   to one that holds it ([now]) or not *)
Definition handover {A} (was now : bool) (taken released kept : A) : A :=
  if now then (if was then kept else taken) else (if was then released else kept).

Definition readers_without (t : nat) (l : list nat) : list nat :=
  filter (fun x => negb (Nat.eqb x t)) l.

(* The holds* labelling of the program counters is an exact account of the lock operations:
   every step of thread t changes each lock by what t's pc gains or loses. *)
Lemma tstep_locks : forall c s t ch s', tstep c s t ch = Some s' ->
  exists p', thr s' = upd (thr s) t p' /\ nthr s' = nthr s
  /\ lkQ s' = handover (holdsQ c (thr s t)) (holdsQ c p') (Some t) None (lkQ s)
  /\ rw_w (lkA s') = handover (holdsAW c (thr s t)) (holdsAW c p') (Some t) None (rw_w (lkA s))
  /\ rw_r (lkA s') = handover (holdsAR (thr s t)) (holdsAR p')
                       (t :: rw_r (lkA s)) (readers_without t (rw_r (lkA s))) (rw_r (lkA s))
  /\ (forall r, rw_w (lkS s' r)
               = handover (holdsSW (thr s t) r) (holdsSW p' r) (Some t) None (rw_w (lkS s r)))
  /\ (forall r, rw_r (lkS s' r)
               = handover (holdsSR (thr s t) r) (holdsSR p' r)
                   (t :: rw_r (lkS s r)) (readers_without t (rw_r (lkS s r))) (rw_r (lkS s r))).
Proof.
  intros c s t ch s' H. tstep_cases H c s t.
  all: eexists; split; [reflexivity|]; split; [reflexivity|]; sim.
  (* a successor of the form seq_pc / m9 / term_enter holds nothing *)
  all: unfold term_enter; try change (m9 ?k) with (seq_pc [] 0 k).
  all: try match goal with |- context [holdsQ ?c0 (seq_pc ?a ?b ?d)] =>
         destruct (seq_pc_none c0 a b d) as (->&->&->&NW&NR) end.
  all: repeat split; try intros r'; rewrite ?NW, ?NR.
  all: cbn [holdsQ holdsAW holdsAR holdsSW holdsSR]; rewrite ?Heqb; try reflexivity.
  all: unfold upd; rewrite ?(Nat.eqb_sym r); destruct (Nat.eqb_spec r' r) as [->|]; reflexivity.
Qed.

(* who owns a lock after a hand-over: the moving thread, if its new pc holds the lock; otherwise an
   old owner, which is not the moving thread unless that keeps what it had *)
Lemma handover_writer : forall was now (t t0 : nat) o,
  handover was now (Some t) None o = Some t0 ->
  t0 = t /\ now = true \/ o = Some t0 /\ (now = was \/ t0 <> t).
Proof. intros [] [] t t0 o H; cbn in H; try discriminate; [| injection H as <- |]; auto. Qed.

Lemma handover_reader : forall was now (t t0 : nat) l,
  In t0 (handover was now (t :: l) (readers_without t l) l) ->
  t0 = t /\ now = true \/ In t0 l /\ (now = was \/ t0 <> t).
Proof.
  intros [] [] t t0 l H; cbn in H; auto.
  - apply in_filter_ne in H. tauto.
  - destruct H as [<-|H]; [auto|]. destruct (Nat.eq_dec t0 t); auto.
Qed.

(* an owner found this way still holds the lock according to its pc *)
Lemma owner_holds : forall (hold : pc -> bool) (th : nat -> pc) n t p' t0 (own : Prop),
  t0 = t /\ hold p' = true \/ own /\ (hold p' = hold (th t) \/ t0 <> t) ->
  t < n -> (own -> t0 < n /\ hold (th t0) = true) ->
  t0 < n /\ hold (upd th t p' t0) = true.
Proof.
  intros hold th n t p' t0 own [[-> Hp]|[Ho Hk]] Ht Hown.
  - now rewrite upd_same.
  - destruct (Hown Ho) as [L Hh]. split; [exact L|].
    destruct (Nat.eq_dec t0 t) as [->|ne]; [|now rewrite upd_other].
    rewrite upd_same. destruct Hk as [->|]; [exact Hh | contradiction].
Qed.

Lemma tstep_LInv : forall c s t ch s',
  t < nthr s -> LInv c s -> tstep c s t ch = Some s' -> LInv c s'.
Proof.
  intros c s t ch s' Ht [iQ iAW iAR iSW iSR] H.
  destruct (tstep_locks _ _ _ _ _ H) as (p'&ET&EN&EQ&EAW&EAR&ESW&ESR).
  constructor; rewrite EN, ET; intros.
  - rewrite EQ in H0. apply handover_writer in H0. eapply owner_holds; eauto.
  - rewrite EAW in H0. apply handover_writer in H0. eapply owner_holds; eauto.
  - rewrite EAR in H0. apply handover_reader in H0. eapply owner_holds; eauto.
  - rewrite ESW in H0. apply handover_writer in H0.
    eapply (owner_holds (fun p => holdsSW p r)); eauto.
  - rewrite ESR in H0. apply handover_reader in H0.
    eapply (owner_holds (fun p => holdsSR p r)); eauto.
Qed.

(* a sufficient condition for a step without lock operation; tstep_LInv does not go through it *)
Section Pres.
Variable c : cfg.
Variable s : state.
Variable t : nat.
Hypothesis Ht : t < nthr s.
Hypothesis HI : LInv c s.

(* the new program counter holds exactly what the old one held: no lock operation *)
Lemma pres_same : forall p' s',
  lkQ s' = lkQ s -> lkA s' = lkA s -> lkS s' = lkS s -> nthr s' = nthr s ->
  thr s' = upd (thr s) t p' ->
  (holdsQ c (thr s t) = true -> holdsQ c p' = true) ->
  (holdsAW c (thr s t) = true -> holdsAW c p' = true) ->
  (holdsAR (thr s t) = true -> holdsAR p' = true) ->
  (forall r, holdsSW (thr s t) r = true -> holdsSW p' r = true) ->
  (forall r, holdsSR (thr s t) r = true -> holdsSR p' r = true) ->
  LInv c s'.
Proof.
  intros p' s' EQ EA ES EN ET HQ HAW HAR HSW HSR. destruct HI as [iQ iAW iAR iSW iSR].
  assert (K : forall (hold : pc -> bool) t0, (hold (thr s t) = true -> hold p' = true) ->
            t0 < nthr s /\ hold (thr s t0) = true -> t0 < nthr s /\ hold (upd (thr s) t p' t0) = true).
  { intros hold t0 Hk [L Hh]. split; [exact L|].
    destruct (Nat.eq_dec t0 t) as [->|ne]; [rewrite upd_same; auto | now rewrite upd_other]. }
  constructor; rewrite ?EQ, ?EA, ?ES, ?EN, ET; intros.
  - apply K; auto.
  - apply K; auto.
  - apply K; auto.
  - apply (K (fun p => holdsSW p r)); auto.
  - apply (K (fun p => holdsSR p r)); auto.
Qed.
End Pres.

Lemma LInv_spawn : forall c s p,
  LInv c s -> LInv c (set_nthr (S (nthr s)) (goto (nthr s) p s)).
Proof.
  intros c s p [iQ iAW iAR iSW iSR]. constructor; sim; intros;
    [destruct (iQ _ H) | destruct (iAW _ H) | destruct (iAR _ H) | destruct (iSW _ _ H) | destruct (iSR _ _ H)];
    (split; [lia|]); now rewrite upd_other by lia.
Qed.

(* a state that differs only in data / ghost fields *)
Lemma LInv_same_locks : forall c s s',
  lkQ s' = lkQ s -> lkA s' = lkA s -> lkS s' = lkS s -> nthr s' = nthr s -> thr s' = thr s ->
  LInv c s -> LInv c s'.
Proof.
  intros c s s' EQ EA ES EN ET [iQ iAW iAR iSW iSR].
  constructor; rewrite ?EQ, ?EA, ?ES, ?EN, ?ET; auto.
Qed.

(* the steps that are not a thread's: a new thread, traffic on a session of a limited user, a session
   that breaks, and the administrator / the clock (which touch db, now and g_adm only) *)
Inductive estep (s : state) : state -> Prop :=
| es_spawn : forall o p, start_pc s o = Some p ->
    estep s (set_nthr (S (nthr s)) (goto (nthr s) p s))
| es_traffic : forall k v, k < nses s -> s_closed (sess s k) = false ->
    (0 <= fst v)%Z -> (0 <= snd v)%Z -> r_bypass (recs s (s_owner (sess s k))) = false ->
    estep s (let r := s_owner (sess s k) in let x := recs s r in
             set_g_cnt (updN (g_cnt s) (r_uid x) (padd (g_cnt s (r_uid x)) v))
               (set_rec r (mkRec (r_uid x) false (r_sess x) (padd (r_valve x) v) (r_term x)) s))
| es_break : forall k, k < nses s ->
    estep s (set_sess (upd (sess s) k (mkSes (s_owner (sess s k)) (s_sid (sess s k)) true)) s)
| es_db : forall d' nw' adm', estep s (set_g_adm adm' (set_now nw' (set_db d' s)))
| es_idle : estep s s.

Lemma step_cases : forall c s l s', step c s l = Some s' ->
  (exists t ch, l = Run t ch /\ t < nthr s /\ tstep c s t ch = Some s') \/ estep s s'.
Proof.
  intros c s l s' H. destruct l as [o|t ch|k v|k|[]|d]; cbn [step] in H.
  - destruct (start_pc s o) eqn:E; [|discriminate]. injection H as <-. right. now apply es_spawn with o.
  - destruct (Nat.ltb_spec t (nthr s)); [|discriminate]. left. eauto.
  - destruct (Nat.ltb_spec k (nses s)); [|discriminate]. destruct (s_closed (sess s k)) eqn:?; [discriminate|].
    destruct (Z.leb_spec 0 (fst v)); [|discriminate]. destruct (Z.leb_spec 0 (snd v)); [|discriminate].
    cbn in H. right. destruct (r_bypass _) eqn:?; injection H as <-; now constructor.
  - destruct (Nat.ltb_spec k (nses s)); [|discriminate]. injection H as <-. right. now constructor.
  - injection H as <-. right. apply (es_db s _ (now s)).
  - injection H as <-. right. apply (es_db s _ (now s)).
  - destruct (0 <=? d)%Z; [|discriminate]. injection H as <-. right. apply (es_db s (db s) _ (g_adm s)).
Qed.

Lemma step_LInv : forall c s l s', LInv c s -> step c s l = Some s' -> LInv c s'.
Proof.
  intros c s l s' HI H. destruct (step_cases _ _ _ _ H) as [(t&ch&_&L&Ht)|E]; [eapply tstep_LInv; eauto|].
  destruct E; [now apply LInv_spawn | apply LInv_same_locks with (s := s); auto..].
Qed.

(* the program counters a thread can start at *)
Lemma start_pc_shape : forall s o p, start_pc s o = Some p ->
  (exists u sd, p = D0 u sd) \/ (exists r sd, p = C0 r sd /\ r < nrec s) \/ (exists cm, p = U0 cm) \/ p = M0.
Proof.
  intros s o p E. destruct o; cbn [start_pc] in E; try (injection E as <-; eauto 6; fail).
  destruct (Nat.ltb_spec r (nrec s)); [injection E as <-; eauto 6 | discriminate].
Qed.

Definition reachable (c : cfg) (d : dbmap) (nw : Z) (s : state) : Prop :=
  exists ls, run c (init d nw) ls = Some s.

Lemma run_inv : forall (P : state -> Prop) c,
  (forall s l s', P s -> step c s l = Some s' -> P s') ->
  forall ls s s', P s -> run c s ls = Some s' -> P s'.
Proof.
  intros P c Hstep. induction ls as [|l ls IH]; cbn; intros s s' HP H.
  - now injection H as <-.
  - destruct (step c s l) eqn:E; [|discriminate]. apply (IH s0 s'); [eapply Hstep; eauto | assumption].
Qed.

Lemma reachable_LInv : forall c d nw s, reachable c d nw s -> LInv c s.
Proof.
  intros c d nw s [ls H]. eapply (run_inv (LInv c)); eauto using step_LInv, LInv_init.
Qed.

(* ------------------------------------------------------------------ deadlock freedom *)
Definition can_run (c : cfg) (s : state) (t : nat) : Prop :=
  t < nthr s /\ exists ch s', step c s (Run t ch) = Some s'.

(* the lock a program counter asks for (w: for writing) *)
Inductive req := RQ | RA (w : bool) | RS (r : nat) (w : bool).

Definition wants (c : cfg) (p : pc) : option req :=
  match p with
  | D0 _ _ | TD0 _ _ _ => Some (RA true)
  | D2 _ _ r | C0 r _ | TC0 r _ _ => Some (RS r true)
  | TN1 _ _ _ _ | M0 => Some RQ
  | U0 _ => Some (if prefix_order c then RA true else RQ)
  | U1 _ => Some (if prefix_order c then RQ else RA true)
  | M1 (_ :: _) _ | M5 _ _ _ | M9 (_ :: _) => Some (RA false)
  | M3 _ r _ _ => Some (RS r false)
  | _ => None
  end.

Definition rw_can (w : bool) (l : rwl) : bool := if w then rw_can_w l else rw_can_r l.
Definition free (s : state) (q : req) : bool :=
  match q with
  | RQ => match lkQ s with None => true | Some _ => false end
  | RA w => rw_can w (lkA s)
  | RS r w => rw_can w (lkS s r)
  end.
Definition owns (c : cfg) (q : req) (p : pc) : bool :=
  match q with
  | RQ => holdsQ c p
  | RA _ => holdsAW c p || holdsAR p
  | RS r _ => holdsSW p r || holdsSR p r
  end.

(* a thread stops only in front of a lock: nothing inside a critical section blocks *)
Lemma tstep_enabled : forall c s t ch, thr s t <> Done ->
  (forall q, wants c (thr s t) = Some q -> free s q = true) -> exists s', tstep c s t ch = Some s'.
Proof.
  intros c s t ch Hnd Hf. unfold tstep. destruct (thr s t); try congruence; cbn [wants] in Hf.
  all: try (specialize (Hf _ eq_refl); cbn [free rw_can] in Hf).
  all: try (rewrite Hf; eauto; fail); eauto.
  - (* D1 *) destruct (table s u); eauto. destruct (is_bypass c u); eauto. destruct (authenticate _ _ _); eauto.
  - (* D3 *) destruct (patched c && _); eauto. destruct (slook _ _); eauto.
    destruct (if r_bypass _ then _ else _); eauto.
  - (* C1 *) destruct (slook _ _); cbv iota beta;
      match goal with |- context [match ?l with [] => _ | _ :: _ => _ end] => destruct l; eauto end.
  - (* TN0 *) destruct (r_bypass _); eauto.
  - (* TN1 *) destruct (lkQ s); [discriminate | eauto].
  - (* U0 *) destruct (prefix_order c); cbn [free rw_can] in Hf; [rewrite Hf | destruct (lkQ s); [discriminate|]]; eauto.
  - (* U1 *) destruct (prefix_order c); cbn [free rw_can] in Hf; [destruct (lkQ s); [discriminate|] | rewrite Hf]; eauto.
  - (* U2 *) destruct (nullify_all _ _ _ _); eauto.
  - (* M0 *) destruct (lkQ s); [discriminate | eauto].
  - (* M1 *) destruct todo; eauto. specialize (Hf _ eq_refl). cbn in Hf. rewrite Hf. eauto.
  - (* M2 *) destruct (table s u); eauto. destruct (r_bypass _); eauto.
  - (* M8 *) destruct (upload _ _ _ _ _) as [[[? ?] ?] ?]; eauto.
  - (* M9 *) destruct k; eauto. specialize (Hf _ eq_refl). cbn in Hf. rewrite Hf. eauto.
  - (* M10 *) destruct (table s u); eauto.
Qed.

Lemma ready_runs : forall c s t, t < nthr s -> thr s t <> Done ->
  (forall q, wants c (thr s t) = Some q -> free s q = true) -> can_run c s t.
Proof.
  intros c s t Ht Hnd Hf. split; [exact Ht|]. exists 0. cbn [step].
  destruct (Nat.ltb_spec t (nthr s)); [|lia]. now apply tstep_enabled.
Qed.

Lemma rw_can_w_false : forall l, rw_can_w l = false ->
  (exists t, rw_w l = Some t) \/ (exists t, In t (rw_r l)).
Proof.
  intros [w r]; unfold rw_can_w; cbn. destruct w; [left; eauto|]. destruct r; [discriminate|].
  right; exists n; now left.
Qed.
Lemma rw_can_r_false : forall l, rw_can_r l = false -> exists t, rw_w l = Some t.
Proof. intros [w r]; unfold rw_can_r; cbn. destruct w; [eauto | discriminate]. Qed.

Lemma ready_or_blocked : forall c s t, t < nthr s -> thr s t <> Done ->
  can_run c s t \/ exists q, wants c (thr s t) = Some q /\ free s q = false.
Proof.
  intros c s t Ht Hnd. destruct (wants c (thr s t)) as [q|] eqn:W; [destruct (free s q) eqn:F; [|eauto]|];
    left; apply ready_runs; auto; rewrite W; congruence.
Qed.

(* a lock that cannot be taken has an owner whose program counter says it holds it *)
Lemma busy_owner : forall c s q, LInv c s -> free s q = false ->
  exists t, t < nthr s /\ owns c q (thr s t) = true.
Proof.
  intros c s q HI F.
  assert (RW : forall w l, rw_can w l = false -> (exists t, rw_w l = Some t) \/ (exists t, In t (rw_r l)))
    by (intros [] l E; [now apply rw_can_w_false | left; now apply rw_can_r_false]).
  destruct q as [|w|r w]; cbn in *.
  - destruct (lkQ s) eqn:E; [|discriminate]. destruct (li_Q _ _ HI _ E). eauto.
  - destruct (RW _ _ F) as [[t E]|[t E]]; exists t;
      [destruct (li_AW _ _ HI _ E) as [L ->] | destruct (li_AR _ _ HI _ E) as [L ->]]; auto using orb_true_r.
  - destruct (RW _ _ F) as [[t E]|[t E]]; exists t;
      [destruct (li_SW _ _ HI _ _ E) as [L ->] | destruct (li_SR _ _ HI _ _ E) as [L ->]]; auto using orb_true_r.
Qed.

(* whoever holds a sessionsM can always take its next step *)
Lemma holder_S_runs : forall c s t r,
  t < nthr s -> (holdsSW (thr s t) r = true \/ holdsSR (thr s t) r = true) -> can_run c s t.
Proof.
  intros c s t r Ht H. apply ready_runs; [exact Ht| |]; destruct (thr s t); cbn in *; intuition discriminate.
Qed.

Section FixedOrder.
Variable c : cfg.
Hypothesis Hfix : prefix_order c = false.

(* with the repaired order nobody requests anything while holding activeUsersM *)
Lemma holder_A_runs : forall s t,
  t < nthr s -> (holdsAW c (thr s t) = true \/ holdsAR (thr s t) = true) -> can_run c s t.
Proof.
  intros s t Ht H. apply ready_runs; [exact Ht| |]; destruct (thr s t); cbn in *; rewrite ?Hfix in *;
    intuition discriminate.
Qed.

(* a holder of usageUpdateQueueM asks for locks of higher rank only *)
Lemma holder_Q_wants : forall p, holdsQ c p = true -> p <> Done /\ wants c p <> Some RQ.
Proof.
  intros p H. destruct p; cbn in *; rewrite ?Hfix in *; try discriminate; split; try discriminate.
  all: match goal with |- context [match ?l with [] => _ | _ :: _ => _ end] => destruct l; discriminate end.
Qed.

(* the rank argument: the owner of a busy sessionsM runs; so does the owner of a busy activeUsersM;
   the owner of usageUpdateQueueM runs or waits for one of those *)
Lemma busy_someone_runs : forall s q, LInv c s -> free s q = false -> exists t, can_run c s t.
Proof.
  intros s q HI.
  assert (Above : forall q, q <> RQ -> free s q = false -> exists t, can_run c s t).
  { intros [|w|r w] Hq F; [congruence|..]; destruct (busy_owner _ _ _ HI F) as (t&L&O); exists t;
      apply orb_prop in O; [now apply holder_A_runs | now apply holder_S_runs with (r := r)]. }
  destruct q; [|apply Above; discriminate..]. intros F.
  destruct (busy_owner _ _ _ HI F) as (t&L&O). cbn in O. destruct (holder_Q_wants _ O) as [Hnd Hq].
  destruct (ready_or_blocked c s t L Hnd) as [?|(q&W&Fq)]; [eauto | apply (Above q); congruence].
Qed.

Lemma unfinished_someone_runs : forall s t, LInv c s ->
  t < nthr s -> thr s t <> Done -> exists t', can_run c s t'.
Proof.
  intros s t HI Ht Hnd. destruct (ready_or_blocked c s t Ht Hnd) as [?|(q&_&Fq)]; eauto using busy_someone_runs.
Qed.

Lemma holder_Q_someone_runs : forall s t, LInv c s ->
  t < nthr s -> holdsQ c (thr s t) = true -> exists t', can_run c s t'.
Proof. intros s t HI Ht H. apply (unfinished_someone_runs s t HI Ht), holder_Q_wants, H. Qed.

Theorem deadlock_free : forall d nw s, reachable c d nw s ->
  (exists t, t < nthr s /\ thr s t <> Done) ->
  exists t ch s', t < nthr s /\ step c s (Run t ch) = Some s'.
Proof.
  intros d nw s HR [t [Ht Hnd]]. apply reachable_LInv in HR.
  destruct (unfinished_someone_runs s t HR Ht Hnd) as [t' [Ht' [ch [s' H]]]]. eauto 6.
Qed.
End FixedOrder.
