(* C17, second half: ownership.  The statement (a Definition, parameterised by the model
   parameters), its proof for the model WITH the proposed repair (cfg.patched), and what holds
   of the code as it is. *)
From Coq Require Import ZArith NArith List Bool Lia Arith.
From Cloak Require Import Model.Panel Proofs.PanelLocks Proofs.PanelWF.
Import ListNotations.

Definition quiescent (s : state) : Prop := forall t, t < nthr s -> thr s t = Done.

(* every live session (of a limited user) is in the session table of its record, and that
   record is the one activeUsers holds for the user *)
Definition owned (s : state) : Prop :=
  forall k, k < nses s -> s_closed (sess s k) = false ->
  let r := s_owner (sess s k) in
  r_bypass (recs s r) = false ->
  table s (r_uid (recs s r)) = Some r /\ slook (s_sid (sess s k)) (r_sess (recs s r)) = Some k.

(* a record the panel no longer knows (terminated) has no live session *)
Definition terminated_dead (s : state) : Prop :=
  forall r k, r < nrec s -> table s (r_uid (recs s r)) <> Some r -> r_bypass (recs s r) = false ->
  k < nses s -> s_owner (sess s k) = r -> s_closed (sess s k) = true.

Definition ownership (c : cfg) : Prop :=
  forall d nw s, reachable c d nw s -> quiescent s -> owned s /\ terminated_dead s.

Lemma owned_terminated_dead : forall s, owned s -> terminated_dead s.
Proof.
  intros s Ho r k Hr Hnt Hb Hk Hown. destruct (s_closed (sess s k)) eqn:E; auto.
  exfalso. apply Hnt. subst r. now apply (Ho k Hk E Hb).
Qed.

(* ------------------------------------------------------------------ the repaired model *)
(* the thread is inside closeAllSessions of record r (under the repair: after the delete, before
   the flag is set) *)
Definition closing (p : pc) (r : nat) : bool :=
  match p with TC0 r' _ _ | TC1 r' _ _ => Nat.eqb r' r | _ => false end.

(* the phases a terminating thread still carries in its pc are those of the repaired order
   delete / close / nullify; needed only because the continuation is data in the pc *)
Definition rest_ok (p : pc) : Prop :=
  match p with
  | TD0 _ rest _ | TD1 _ rest _ => rest = [PhC; PhN]
  | TC0 _ rest _ | TC1 _ rest _ => rest = [PhN]
  | TN0 _ rest _ | TN1 _ _ rest _ | TN2 _ _ rest _ => rest = []
  | _ => True
  end.

(* The invariant of the repair: a flagged record has no session; and every record is flagged, or
   still the one the table holds for its uid, or some thread is between TD1 and TC1 for it (it has
   left the table and its sessions are about to be closed). *)
Record PInv (s : state) : Prop := {
  p_term : forall r, r_term (recs s r) = true -> r_sess (recs s r) = [];
  p_rest : forall t, rest_ok (thr s t);
  p_home : forall r, r < nrec s ->
             r_term (recs s r) = true \/ table s (r_uid (recs s r)) = Some r
             \/ exists t, t < nthr s /\ closing (thr s t) r = true
}.

Lemma PInv_init : forall d nw, PInv (init d nw).
Proof. intros; constructor; cbn; intros; try discriminate; try lia; auto. Qed.

Lemma m9_rest : forall k, rest_ok (m9 k).
Proof. destruct k; cbn; auto. Qed.
Lemma m9_closing : forall k r, closing (m9 k) r = false.
Proof. destruct k; auto. Qed.

Section Patched.
Variable c : cfg.
Hypothesis Hp : patched c = true.

Lemma term_enter_patched : forall r k, term_enter c r k = TD0 r [PhC; PhN] k.
Proof. intros. unfold term_enter, phases. rewrite Hp. reflexivity. Qed.

(* what a step does to the two views PInv has of a program counter: the phases still to run, and
   whether the thread is inside closeAllSessions of record r (entered from TD1, left at TC1) *)
Lemma tstep_pc_PInv : forall s t ch s', rest_ok (thr s t) -> tstep c s t ch = Some s' ->
  rest_ok (thr s' t)
  /\ (forall r, closing (thr s t) r = true ->
        closing (thr s' t) r = true \/ exists rest k, thr s t = TC1 r rest k).
Proof.
  intros s t ch s' PR H. tstep_cases H c s t; sim; rewrite ?upd_same, ?term_enter_patched.
  all: cbn [rest_ok] in PR; try subst rest; split; cbn; auto using m9_rest.
  all: intros r1 E; try discriminate E; apply Nat.eqb_eq in E; subst; eauto.
Qed.

Lemma td1_enters_closing : forall s t ch s' r rest k, rest_ok (thr s t) ->
  thr s t = TD1 r rest k -> tstep c s t ch = Some s' -> closing (thr s' t) r = true.
Proof.
  intros s t ch s' r rest k PR Hpc H. unfold tstep in H. rewrite Hpc in *. cbn in PR. subst rest.
  injection H as <-. destruct (if patched c then _ else _); sim; rewrite upd_same; apply Nat.eqb_refl.
Qed.

Lemma tc1_sets_term : forall s t ch s' r rest k,
  thr s t = TC1 r rest k -> tstep c s t ch = Some s' -> r_term (recs s' r) = true.
Proof.
  intros s t ch s' r rest k Hpc H. unfold tstep in H. rewrite Hpc in H. injection H as <-.
  sim. rewrite upd_same. cbn. now rewrite Hp.
Qed.

(* under the repair: termination flags are never reset; the table entry of a record goes only when
   TD1 deletes it; a record created by this step is entered in the table *)
Lemma dstep_home : forall s p p' d r, dstep c s p p' d ->
  (r < nrec s ->
     (r_term (recs s r) = true -> r_term (recs d r) = true)
     /\ (table s (r_uid (recs s r)) = Some r ->
         table d (r_uid (recs d r)) = Some r \/ exists rest k, p = TD1 r rest k))
  /\ (nrec s <= r -> r < nrec d -> table d (r_uid (recs d r)) = Some r).
Proof.
  intros s p p' d r D. destruct D; sim.
  all: split; [intros L | try lia]; auto.
  - rewrite upd_other by lia. split; [auto|].
    intros E. left. rewrite updN_other; [exact E | intros E2; rewrite E2 in E; congruence].
  - intros G L. assert (r = nrec s) as -> by lia. rewrite upd_same. apply updN_same.
  - unfold upd. destruct (Nat.eqb_spec r r0) as [->|]; cbn; auto.
  - unfold upd. destruct (Nat.eqb_spec r r0) as [->|]; cbn; auto.
  - unfold upd. destruct (Nat.eqb_spec r r0) as [->|]; cbn; auto.
  - unfold upd. destruct (Nat.eqb_spec r r0) as [->|]; cbn; rewrite ?Hp; auto.
  - split; [auto|]. intros E. destruct (Nat.eq_dec r r0) as [->|ne]; [right; eauto | left].
    rewrite updN_other; [exact E | intros E2; rewrite E2, (Hhome Hp) in E; congruence].
  - pose proof (nullify_all_fields (nrec s) (table s) (recs s) (queue s) r) as F.
    rewrite Hnull in F. cbn in F. destruct F as (->&_&_&->). auto.
Qed.

Lemma tstep_PInv : forall s t ch s', t < nthr s -> PInv s -> tstep c s t ch = Some s' -> PInv s'.
Proof.
  intros s t ch s' Ht [pt pr ph] H.
  destruct (tstep_pc_PInv _ _ _ _ (pr t) H) as (PR&CK).
  pose proof (fun r rest k E => td1_enters_closing _ _ _ _ r rest k (pr t) E H) as CD.
  pose proof (fun r rest k E => tc1_sets_term _ _ _ _ r rest k E H) as CT.
  destruct (tstep_data _ _ _ _ _ H) as (p'&d&D&E&ET&EN).
  destruct E as (Et&En&Er&_).
  rewrite ET, upd_same in PR, CK, CD. rewrite Er in CT.
  constructor; rewrite ?Et, ?En, ?Er, ?EN, ?ET.
  - (* a terminated record has no session: it gets none (D3 looks at the flag), and the step that
       sets the flag empties the table *)
    clear ph CK CD CT. destruct D; sim; auto; intros r1; unfold upd.
    all: try (destruct (Nat.eqb_spec r1 r) as [->|]; cbn; [|auto]); rewrite ?Hp in *; cbn [andb] in *.
    + destruct (Nat.eqb_spec r1 (nrec s)); [discriminate | auto].
    + congruence.
    + intros T. rewrite (pt _ T) in *. discriminate.
    + auto.
    + auto.
    + pose proof (nullify_all_fields (nrec s) (table s) (recs s) (queue s) r1) as F.
      rewrite Hnull in F. cbn in F. destruct F as (_&_&->&->). auto.
  - intros t0. unfold upd. destruct (Nat.eqb t0 t); auto.
  - intros r L. destruct (dstep_home _ _ _ _ r D) as [Old New].
    destruct (Nat.lt_ge_cases r (nrec s)) as [Lo|Ge]; [|right; left; auto].
    destruct (Old Lo) as (Tm&Tb).
    destruct (ph r Lo) as [H1|[H1|[t1 [Lt Hc]]]]; [left; auto | |].
    + destruct (Tb H1) as [?|(rest&k&E1)]; [right; left; assumption|].
      right; right. exists t. split; [exact Ht|]. rewrite upd_same. eapply CD; eauto.
    + destruct (Nat.eq_dec t1 t) as [->|ne].
      * destruct (CK _ Hc) as [Hc'|(rest&k&E1)]; [|left; eauto].
        right; right. exists t. rewrite upd_same. auto.
      * right; right. exists t1. rewrite upd_other by exact ne. auto.
Qed.

Lemma step_PInv : forall s l s', PInv s -> step c s l = Some s' -> PInv s'.
Proof.
  intros s l s' HP H. destruct (step_cases _ _ _ _ H) as [(t&ch&_&L&Ht)|E]; [eapply tstep_PInv; eauto|].
  destruct HP as [pt pr ph]. destruct E as [o p E| | | |]; cbv zeta; constructor; sim; auto.
  - intros t. unfold upd. destruct (Nat.eqb t (nthr s)); auto.
    destruct (start_pc_shape _ _ _ E) as [(? & ? & ->)|[(? & ? & -> & _)|[(? & ->) | -> ]]]; exact I.
  - intros r L. destruct (ph r L) as [H1|[H1|[t1 [Lt Hc]]]]; auto.
    right; right. exists t1. split; [lia|]. now rewrite upd_other by lia.
  - intros r0. unfold upd. destruct (Nat.eqb_spec r0 (s_owner (sess s k))) as [->|]; cbn; auto.
  - intros r0 L. unfold upd. destruct (Nat.eqb_spec r0 (s_owner (sess s k))) as [->|]; cbn; auto.
Qed.

Lemma reachable_PInv : forall d nw s, reachable c d nw s -> PInv s.
Proof. intros d nw s [ls H]. eapply (run_inv PInv); eauto using step_PInv, PInv_init. Qed.

Theorem ownership_patched : ownership c.
Proof.
  intros d nw s HR HQ. pose proof (reachable_WF _ _ _ _ HR) as HW. apply reachable_PInv in HR. rename HR into HP.
  assert (Ho : owned s).
  { intros k Hk Hc r Hb. subst r.
    pose proof (w_live _ _ HW k Hk Hc) as Hl. split; [|exact Hl].
    pose proof (w_ses _ _ HW k Hk) as Hr.
    destruct (p_home _ HP _ Hr) as [H1|[H1|[t1 [Lt Hcl]]]].
    - apply (p_term _ HP) in H1. rewrite H1 in Hl. discriminate Hl.
    - exact H1.
    - rewrite (HQ t1 Lt) in Hcl. discriminate Hcl. }
  split; [exact Ho | now apply owned_terminated_dead].
Qed.

(* stronger than the property asks: also for bypass users, and a terminated record (flag set)
   never holds a session, quiescent or not *)
Lemma patched_terminated_empty : forall d nw s r k,
  reachable c d nw s -> r_term (recs s r) = true -> k < nses s -> s_owner (sess s k) = r ->
  s_closed (sess s k) = true.
Proof.
  intros d nw s r k HR Ht Hk Ho. pose proof (reachable_WF _ _ _ _ HR) as HW. apply reachable_PInv in HR. rename HR into HP.
  destruct (s_closed (sess s k)) eqn:E; auto.
  pose proof (w_live _ _ HW k Hk E) as Hl. rewrite Ho in Hl.
  rewrite (p_term _ HP _ Ht) in Hl. discriminate Hl.
Qed.
End Patched.

(* what holds of the code as it is (any parameter setting, not only at quiescence): a live
   session is always in the session table of the record that created it, under its id - so that
   record's CloseSession / closeAllSessions reach it.  Whether this record is still the one
   activeUsers holds is not decided here: the last conjunct only unfolds [owned] *)
Lemma ownership_partial : forall c d nw s k, reachable c d nw s ->
  k < nses s -> s_closed (sess s k) = false ->
  let r := s_owner (sess s k) in
  r < nrec s /\ slook (s_sid (sess s k)) (r_sess (recs s r)) = Some k
  /\ (table s (r_uid (recs s r)) = Some r \/
      (table s (r_uid (recs s r)) <> Some r /\ ~ owned s \/ r_bypass (recs s r) = true)).
Proof.
  intros c d nw s k HR Hk Hc r. apply reachable_WF in HR.
  split; [now apply (w_ses _ _ HR)|]. split; [now apply (w_live _ _ HR)|].
  destruct (r_bypass (recs s r)) eqn:Eb; [right; right; reflexivity|].
  destruct (table s (r_uid (recs s r))) as [r'|] eqn:Et.
  - destruct (Nat.eq_dec r' r) as [->|ne]; [left; reflexivity|].
    right; left. split; [congruence|]. intro Ho. destruct (Ho k Hk Hc Eb) as [Ht _].
    fold r in Ht. congruence.
  - right; left. split; [congruence|]. intro Ho. destruct (Ho k Hk Hc Eb) as [Ht _].
    fold r in Ht. congruence.
Qed.
