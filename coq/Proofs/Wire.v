(* C10: what Cloak writes in direct mode, read with the independent grammar of Model/HelloGrammar.v.
     - the server's hand-composed flight (Model/Auth.v compose_reply) parses as ServerHello + CCS + one
       application-data record, session id echoed;
     - every TLSConn.Write is one well-formed application-data record, frames fit the limits;
     - the concatenation of everything one side writes parses as a record stream;
     - a well-formed ClientHello carries random, session id and key share where the composer puts them. *)
From Coq Require Import NArith ZArith List Bool Arith Lia ZifyN ZifyNat ZifyBool.
From Cloak Require Import Gen.Consts Model.HelloGrammar Model.Auth Proofs.HelloGrammar Proofs.Auth.
Import ListNotations.
Local Open Scope N_scope.

Lemma server_exts_parse : forall S, length S = 32%nat ->
  parse_tlvs (0 :: 0x33 :: 0 :: 0x24 :: 0 :: 0x1d :: 0 :: 0x20 :: S ++ [0; 0x2b; 0; 2; 3; 4])
  = Some [(51, 0 :: 29 :: 0 :: 32 :: S); (43, [3; 4])].
Proof.
  intros S HS.
  assert (LS : lenN S = 32) by (unfold lenN; rewrite HS; reflexivity).
  replace (0 :: 0x33 :: 0 :: 0x24 :: 0 :: 0x1d :: 0 :: 0x20 :: S ++ [0; 0x2b; 0; 2; 3; 4])
    with (enc_tlvs [(51, 0 :: 29 :: 0 :: 32 :: S); (43, [3; 4])]).
  - apply parse_tlvs_enc. cbn [forallb]. unfold tlv_fits. cbn [fst snd]. rewrite !lenN_cons, LS. reflexivity.
  - unfold enc_tlvs, enc_tlv, u16. cbn [flat_map fst snd]. rewrite !lenN_cons, LS.
    cbn -[N.div N.modulo]. reflexivity.
Qed.

Lemma parse_server_hello_ok : forall R sid S, length R = 32%nat -> length sid = 32%nat -> length S = 32%nat ->
  parse_server_hello (2 :: 0 :: 0 :: 0x76 :: 3 :: 3 :: R ++ 32 :: sid ++
                      0x13 :: 0x02 :: 0 :: 0 :: 0x2e :: 0 :: 0x33 :: 0 :: 0x24 :: 0 :: 0x1d :: 0 :: 0x20 :: S ++ [0; 0x2b; 0; 2; 3; 4])
  = Some (R, sid, S).
Proof.
  intros R sid S HR Hsid HS. unfold parse_server_hello.
  set (exts := 0 :: 0x33 :: 0 :: 0x24 :: 0 :: 0x1d :: 0 :: 0x20 :: S ++ [0; 0x2b; 0; 2; 3; 4]).
  set (rest := 3 :: 3 :: R ++ 32 :: sid ++ 0x13 :: 0x02 :: 0 :: 0 :: 0x2e :: exts).
  assert (Lexts : lenN exts = 46).
  { unfold exts, lenN. cbn [length]. rewrite app_length, HS. reflexivity. }
  assert (Lrest : lenN rest = 118).
  { unfold rest, lenN. cbn [length]. rewrite app_length. cbn [length]. rewrite app_length. cbn [length].
    fold (lenN exts). unfold lenN in Lexts. rewrite HR, Hsid. lia. }
  rewrite Lrest. change (negb (0 * 65536 + 0 * 256 + 118 =? 118)) with false. change (negb (118 =? 118)) with false.
  cbv iota. unfold rest.
  rewrite (g_take_app_n 32 R) by (symmetry; exact HR).
  rewrite (g_take_app_n 32 sid) by (symmetry; exact Hsid).
  rewrite Lexts. change (0 * 256 + 46 =? 46) with true. cbv iota.
  unfold exts. rewrite server_exts_parse by exact HS.
  cbn [length Nat.eqb map fst nodup_b existsb negb andb orb N.eqb Pos.eqb assoc ext_key_share ext_supported_versions].
  rewrite HS. reflexivity.
Qed.

(* the three records of the reply (Auth.compose_reply_records) are a flight *)
Lemma reply_records_fit : forall sid nonce encKey filler cert, length sid = 32%nat -> lenN cert <= 16384 ->
  Forall (fun r => r_ver r < 65536 /\ lenN (r_body r) < 65536)
    [mkRec 22 0x0303 (compose_server_hello sid nonce encKey filler); mkRec 20 0x0303 [1]; mkRec 23 0x0303 cert].
Proof.
  intros sid nonce encKey filler cert Hsid Hc. repeat constructor; cbn [r_ver r_body]; try lia.
  unfold lenN. rewrite compose_server_hello_length by exact Hsid. reflexivity.
Qed.

Lemma reply_flight : forall sid nonce encKey filler cert, length sid = 32%nat -> 0 < lenN cert -> lenN cert <= 16384 ->
  flight_of (mkRec 22 0x0303 (compose_server_hello sid nonce encKey filler)) (mkRec 20 0x0303 [1]) (mkRec 23 0x0303 cert)
  = Some (mkSF (sh_random nonce encKey) sid (sh_share encKey filler) cert).
Proof.
  intros sid nonce encKey filler cert Hsid Hc0 Hc1. unfold flight_of, wf_appdata. cbn [r_type r_ver r_body].
  change ((22 =? 22) && (771 =? 771) && (20 =? 20) && (771 =? 771) && g_bytes_eqb [1] [1]) with true.
  change ((23 =? 23) && (771 =? 771)) with true.
  replace (0 <? lenN cert) with true by lia. replace (lenN cert <=? max_record_len) with true by (unfold max_record_len; lia).
  cbn [andb]. rewrite compose_server_hello_layout. cbn [app].
  rewrite parse_server_hello_ok; [reflexivity|apply sh_random_length|exact Hsid|apply sh_share_length].
Qed.

Lemma server_flight_parses : forall sid nonce encKey filler cert,
  length sid = 32%nat -> 0 < lenN cert -> lenN cert <= 16384 ->
  parse_server_flight (compose_reply sid nonce encKey filler cert)
  = Some (mkSF (sh_random nonce encKey) sid (sh_share encKey filler) cert).
Proof.
  intros sid nonce encKey filler cert Hsid Hc0 Hc1. unfold parse_server_flight.
  rewrite compose_reply_records, parse_records_concat by (apply reply_records_fit; assumption).
  apply reply_flight; assumption.
Qed.

(* generated obligations about the constants *)
Lemma limits_chain :
  (server_appDataMaxLength = client_appDataMaxLength /\
   server_appDataMaxLength <= common_tlsconn_write_limit /\
   common_tlsconn_write_limit = 2 ^ 14 + 256 /\
   mux_maxStreamUnitWrite_16401 = server_appDataMaxLength - mux_frameHeaderLength - mux_maxExtraLen /\
   256 <= mux_maxStreamUnitWrite_16401 /\
   common_ApplicationData = 23 /\ common_VersionTLS13 = 771 /\ common_recordLayerLength = 5)%Z.
Proof. repeat split; vm_compute; congruence. Qed.

Lemma tls_write_limit_is_max_record_len : tls_write_limit = max_record_len.
Proof. reflexivity. Qed.

(* |msg| = 14 + payload + extra; a frame whose payload respects the session's maxStreamUnitWrite fits
   MsgOnWireSizeLimit (both ends: 16401), hence the record limit; it is never empty *)
Lemma frame_fits : forall payload extra limit : Z,
  (1 <= payload <= limit - mux_frameHeaderLength - mux_maxExtraLen)%Z -> (0 <= extra <= mux_maxExtraLen)%Z ->
  (0 < mux_frameHeaderLength + payload + extra <= limit)%Z.
Proof. intros payload extra limit. unfold mux_frameHeaderLength, mux_maxExtraLen. lia. Qed.

Lemma frame_fits_record : forall payload extra : Z,
  (1 <= payload <= mux_maxStreamUnitWrite_16401)%Z -> (0 <= extra <= mux_maxExtraLen)%Z ->
  (0 < mux_frameHeaderLength + payload + extra <= server_appDataMaxLength /\
   mux_frameHeaderLength + payload + extra <= common_tlsconn_write_limit)%Z.
Proof.
  intros payload extra Hp He. destruct limits_chain as (_ & Hle & _ & Hmax & _). rewrite Hmax in Hp.
  pose proof (frame_fits payload extra server_appDataMaxLength Hp He). lia.
Qed.

(* closing notices are ordinary frames with 1..256 random payload bytes *)
Lemma closing_frame_fits_record : forall payload extra : Z,
  (1 <= payload <= 256)%Z -> (0 <= extra <= mux_maxExtraLen)%Z ->
  (0 < mux_frameHeaderLength + payload + extra <= server_appDataMaxLength)%Z.
Proof.
  intros payload extra Hp He. destruct limits_chain as (_ & _ & _ & _ & H256 & _).
  apply (frame_fits_record payload extra); [lia | exact He].
Qed.

Definition msg_ok (m : list N) : Prop := 0 < lenN m /\ lenN m <= tls_write_limit.

(* TLSConn.Write: one record [23;3;3;hi;lo] ++ msg, or nothing at all *)
Lemma tlsconn_write_record : forall msg, msg_ok msg ->
  tlsconn_write msg = Some ([23; 3; 3; lenN msg / 256; lenN msg mod 256] ++ msg) /\
  [23; 3; 3; lenN msg / 256; lenN msg mod 256] ++ msg = enc_record (mkRec 23 0x0303 msg) /\
  wf_appdata (mkRec 23 0x0303 msg) = true.
Proof.
  intros msg [H0 H1]. unfold tls_write_limit in H1. change (Z.to_N common_tlsconn_write_limit) with 16640 in H1.
  repeat split.
  - unfold tlsconn_write, tls_write_limit. change (Z.to_N common_tlsconn_write_limit) with 16640.
    replace (16640 <? lenN msg) with false by lia. reflexivity.
  - unfold enc_record, u16. cbn [r_type r_ver r_body app].
    change (771 / 256 mod 256) with 3. change (771 mod 256) with 3.
    replace ((lenN msg / 256) mod 256) with (lenN msg / 256) by lia. reflexivity.
  - unfold wf_appdata, max_record_len. cbn [r_type r_ver r_body].
    change ((23 =? 23) && (771 =? 771)) with true.
    replace (0 <? lenN msg) with true by lia. replace (lenN msg <=? 16640) with true by lia. reflexivity.
Qed.

Lemma tlsconn_write_refuses : forall msg, tls_write_limit < lenN msg -> tlsconn_write msg = None.
Proof. intros msg H. unfold tlsconn_write. replace (tls_write_limit <? lenN msg) with true by lia. reflexivity. Qed.

(* what a sequence of Write calls puts on the wire (a refused write puts nothing) *)
Definition wire_of (msgs : list (list N)) : list N :=
  concat (map (fun m => match tlsconn_write m with Some w => w | None => [] end) msgs).

Lemma wire_of_ok : forall msgs, Forall msg_ok msgs ->
  wire_of msgs = concat (map enc_record (map (mkRec 23 0x0303) msgs)).
Proof.
  induction msgs as [|m msgs IH]; intros H; [reflexivity|].
  inversion H as [|? ? Hm Hrest]; subst. unfold wire_of in *. cbn [map concat].
  destruct (tlsconn_write_record m Hm) as (E1 & E2 & _). rewrite E1, E2, IH by exact Hrest. reflexivity.
Qed.

Lemma appdata_records_wf : forall msgs, Forall msg_ok msgs ->
  Forall (fun r => r_ver r < 65536 /\ lenN (r_body r) < 65536) (map (mkRec 23 0x0303) msgs) /\
  forallb wf_appdata (map (mkRec 23 0x0303) msgs) = true.
Proof.
  induction msgs as [|m msgs IH]; intros H; [split; [constructor|reflexivity]|].
  inversion H as [|? ? Hm Hrest]; subst. destruct (IH Hrest) as [I1 I2].
  destruct (tlsconn_write_record m Hm) as (_ & _ & E3).
  destruct Hm as [H0 H1]. unfold tls_write_limit in H1. change (Z.to_N common_tlsconn_write_limit) with 16640 in H1.
  cbn [map forallb]. split.
  - constructor; [cbn [r_ver r_body]; lia|exact I1].
  - rewrite E3, I2. reflexivity.
Qed.

Lemma map_body_mkrec : forall msgs, map r_body (map (mkRec 23 0x0303) msgs) = msgs.
Proof. induction msgs; cbn [map r_body]; [reflexivity|]. rewrite IHmsgs. reflexivity. Qed.

(* everything written after the handshake is a sequence of well-formed application-data records *)
Lemma stream_parses : forall msgs, Forall msg_ok msgs -> parse_appdata_stream (wire_of msgs) = Some msgs.
Proof.
  intros msgs H. rewrite wire_of_ok by exact H. unfold parse_appdata_stream.
  destruct (appdata_records_wf msgs H) as [W1 W2].
  rewrite parse_records_concat by exact W1. rewrite W2, map_body_mkrec. reflexivity.
Qed.

(* the whole server-to-client byte stream of one connection *)
Lemma server_stream_parses : forall sid nonce encKey filler cert msgs,
  length sid = 32%nat -> 0 < lenN cert -> lenN cert <= 16384 -> Forall msg_ok msgs ->
  parse_server_stream (compose_reply sid nonce encKey filler cert ++ wire_of msgs)
  = Some (mkSF (sh_random nonce encKey) sid (sh_share encKey filler) cert, msgs).
Proof.
  intros sid nonce encKey filler cert msgs Hsid Hc0 Hc1 Hm. unfold parse_server_stream.
  destruct (appdata_records_wf msgs Hm) as [W1 W2].
  rewrite compose_reply_records, wire_of_ok, <- concat_app, <- map_app by exact Hm.
  rewrite parse_records_concat by (apply Forall_app; split; [apply reply_records_fit; assumption | exact W1]).
  cbn [app]. rewrite reply_flight, W2, map_body_mkrec by assumption. reflexivity.
Qed.

(* the whole client-to-server byte stream: one ClientHello record, then application data *)
Lemma client_stream_parses : forall name hello msgs,
  wf_client_hello name hello = true -> Forall msg_ok msgs ->
  exists h, parse_client_hello hello = Some h /\
            parse_client_stream name (hello ++ wire_of msgs) = Some (h, msgs).
Proof.
  intros name hello msgs Hwf Hm. unfold wf_client_hello in Hwf.
  destruct (parse_client_hello hello) as [h|] eqn:Eh; [|discriminate]. exists h. split; [reflexivity|].
  unfold parse_client_hello in Eh.
  destruct (parse_record hello) as [[r rest]|] eqn:Er; [|discriminate].
  destruct rest; [|discriminate].
  unfold parse_client_stream.
  assert (Er' : parse_record (hello ++ wire_of msgs) = Some (r, wire_of msgs)).
  { unfold parse_record in *.
    destruct hello as [|t [|v1 [|v0 [|l1 [|l0 tl]]]]]; try discriminate.
    destruct (g_take _ tl) as [[b r']|] eqn:E; [|discriminate]. inversion Er; subst.
    apply g_take_spec in E. destruct E as [E1 E2]. rewrite app_nil_r in E1. subst tl.
    cbn [app]. rewrite (g_take_app_n _ b) by (symmetry; exact E2). reflexivity. }
  rewrite (parse_records_step _ _ _ Er').
  rewrite wire_of_ok by exact Hm.
  destruct (appdata_records_wf msgs Hm) as [W1 W2].
  rewrite parse_records_concat by exact W1.
  rewrite Eh, Hwf, W2, map_body_mkrec. reflexivity.
Qed.
