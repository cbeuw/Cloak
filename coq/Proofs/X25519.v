(* Facts about Model/Crypto/X25519.v: the field operations are the operations modulo p = 2^255 - 19,
   bit 255 of the u-coordinate is masked, RFC 7748 test vectors (by computation).  Commutativity of
   the Diffie-Hellman function is NOT proved anywhere: it is the Section hypothesis [dh_comm] of the
   C06 theorems. *)
From Coq Require Import ZArith NArith List Lia.
From Cloak Require Import Model.Crypto.X25519.
Import ListNotations.
Local Open Scope Z_scope.

Lemma le_decode_app : forall a b,
  le_decode (a ++ b) = le_decode a + 256 ^ Z.of_nat (length a) * le_decode b.
Proof.
  induction a as [|x a IH]; intros b.
  - cbn [app length le_decode]. change (256 ^ Z.of_nat 0) with 1. lia.
  - cbn [app le_decode]. rewrite IH.
    replace (Z.of_nat (length (x :: a))) with (Z.succ (Z.of_nat (length a))) by (cbn [length]; lia).
    rewrite Z.pow_succ_r by lia. ring.
Qed.

(* Two u-coordinates that differ only in bit 255 (bit 7 of byte 31) are the same input. *)
Lemma mask_u_bit255 : forall pre b,
  length pre = 31%nat ->
  mask_u (le_decode (pre ++ [b + 128]%N)) = mask_u (le_decode (pre ++ [b])).
Proof.
  intros pre b Hlen. unfold mask_u. rewrite !le_decode_app, Hlen.
  cbn [le_decode].
  replace (Z.of_N (b + 128)) with (Z.of_N b + 128) by lia.
  change (256 ^ Z.of_nat 31) with (2 ^ 248).
  replace (le_decode pre + 2 ^ 248 * (Z.of_N b + 128 + 256 * 0))
    with (le_decode pre + 2 ^ 248 * (Z.of_N b + 256 * 0) + 1 * 2 ^ 255).
  - apply Z.mod_add. discriminate.
  - change (2 ^ 255) with (2 ^ 248 * 128). ring.
Qed.

Lemma x25519_ignores_bit255 : forall scalar pre b,
  length pre = 31%nat ->
  x25519 scalar (pre ++ [b + 128]%N) = x25519 scalar (pre ++ [b]).
Proof.
  intros scalar pre b Hlen. unfold x25519, x25519_z.
  rewrite (mask_u_bit255 pre b Hlen). reflexivity.
Qed.


(* The specialised reduction is reduction modulo p = 2^255 - 19. *)
Lemma fold255_spec : forall x, 0 <= x -> fold255 x = x mod 2 ^ 255 + 19 * (x / 2 ^ 255).
Proof.
  intros x Hx. unfold fold255, mask255.
  change (2 ^ 255 - 1) with (Z.ones 255). rewrite Z.land_ones by lia.
  rewrite Z.shiftr_div_pow2 by lia. reflexivity.
Qed.

(* one fold keeps the residue and brings 0 <= x < n * 2^255 below 2^255 + 19 n *)
Lemma fold255_mod : forall x n, 0 <= x < n * 2 ^ 255 ->
  fold255 x mod p25519 = x mod p25519 /\ 0 <= fold255 x < 2 ^ 255 + 19 * n.
Proof.
  intros x n Hx. rewrite fold255_spec by lia.
  pose proof (Z.mod_pos_bound x (2 ^ 255) eq_refl) as Hm.
  assert (0 <= x / 2 ^ 255 < n) as Hq by (split; [apply Z.div_pos | apply Z.div_lt_upper_bound]; lia).
  split; [|lia].
  rewrite (Z.div_mod x (2 ^ 255)) at 3 by discriminate.
  replace (2 ^ 255 * (x / 2 ^ 255) + x mod 2 ^ 255)
    with (x mod 2 ^ 255 + 19 * (x / 2 ^ 255) + (x / 2 ^ 255) * p25519) by (unfold p25519; ring).
  symmetry. apply Z.mod_add. discriminate.
Qed.

Lemma sub_p_mod : forall r, 0 <= r < 2 * p25519 -> (if r >=? p25519 then r - p25519 else r) = r mod p25519.
Proof.
  intros r Hr. destruct (r >=? p25519) eqn:E; symmetry.
  - replace r with ((r - p25519) + 1 * p25519) at 1 by ring.
    rewrite Z.mod_add by discriminate. apply Z.mod_small. lia.
  - apply Z.mod_small. lia.
Qed.

Lemma freduce_spec : forall x, 0 <= x < 2 ^ 512 -> freduce x = x mod p25519.
Proof.
  intros x Hx. unfold freduce. cbv zeta.
  destruct (fold255_mod x (2 ^ 257) Hx) as [E1 H1].
  destruct (fold255_mod (fold255 x) 128) as [E2 H2]; [split; [apply H1 | eapply Z.lt_le_trans; [apply H1 | discriminate]]|].
  rewrite sub_p_mod, E2, E1 by (split; [apply H2 | eapply Z.lt_le_trans; [apply H2 | discriminate]]). reflexivity.
Qed.

Lemma fmul_spec : forall a b, 0 <= a < p25519 -> 0 <= b < p25519 -> fmul a b = (a * b) mod p25519.
Proof.
  intros a b Ha Hb. unfold fmul. apply freduce_spec.
  assert (Hp : p25519 < 2 ^ 256) by reflexivity.
  split. nia. change (2 ^ 512) with (2 ^ 256 * 2 ^ 256). nia.
Qed.
Lemma fadd_spec : forall a b, 0 <= a < p25519 -> 0 <= b < p25519 -> fadd a b = (a + b) mod p25519.
Proof. intros a b Ha Hb. unfold fadd. cbv zeta. apply sub_p_mod. lia. Qed.
Lemma fsub_spec : forall a b, 0 <= a < p25519 -> 0 <= b < p25519 -> fsub a b = (a - b) mod p25519.
Proof.
  intros a b Ha Hb. unfold fsub. cbv zeta. destruct (a - b <? 0) eqn:E; symmetry.
  - replace (a - b) with ((a - b + p25519) + (-1) * p25519) at 1 by ring.
    rewrite Z.mod_add by discriminate. apply Z.mod_small. lia.
  - apply Z.mod_small. lia.
Qed.

(* Only the clamped scalar matters. *)
Lemma clamp_scalar_idem : forall k, clamp_scalar (clamp_scalar k) = clamp_scalar k.
Proof.
  intros k. unfold clamp_scalar.
  apply Z.bits_inj'. intros n Hn.
  assert (Hm : forall z, Z.testbit (z mod 2 ^ 255) n = if n <? 255 then Z.testbit z n else false).
  { intros z. destruct (n <? 255) eqn:E.
    - apply Z.mod_pow2_bits_low. lia.
    - apply Z.mod_pow2_bits_high. lia. }
  rewrite !Z.lor_spec, !Z.land_spec, !Hm, Z.lor_spec, Z.land_spec, Hm.
  destruct (n <? 255) eqn:E.
  - destruct (Z.testbit (2 ^ 254) n) eqn:E2.
    + rewrite !Bool.orb_true_r. reflexivity.
    + rewrite !Bool.orb_false_r. rewrite <- Bool.andb_assoc, Bool.andb_diag. reflexivity.
  - assert (Z.testbit (2 ^ 254) n = false) as ->.
    { rewrite Z.pow2_bits_eqb by lia. apply Z.eqb_neq. lia. }
    reflexivity.
Qed.

(* RFC 7748 section 5.2, first and second test vector; section 6.1 (Alice/Bob) *)

Example rfc7748_vector1 :
  x25519
    [0xa5;0x46;0xe3;0x6b;0xf0;0x52;0x7c;0x9d;0x3b;0x16;0x15;0x4b;0x82;0x46;0x5e;0xdd;
     0x62;0x14;0x4c;0x0a;0xc1;0xfc;0x5a;0x18;0x50;0x6a;0x22;0x44;0xba;0x44;0x9a;0xc4]%N
    [0xe6;0xdb;0x68;0x67;0x58;0x30;0x30;0xdb;0x35;0x94;0xc1;0xa4;0x24;0xb1;0x5f;0x7c;
     0x72;0x66;0x24;0xec;0x26;0xb3;0x35;0x3b;0x10;0xa9;0x03;0xa6;0xd0;0xab;0x1c;0x4c]%N
  = [0xc3;0xda;0x55;0x37;0x9d;0xe9;0xc6;0x90;0x8e;0x94;0xea;0x4d;0xf2;0x8d;0x08;0x4f;
     0x32;0xec;0xcf;0x03;0x49;0x1c;0x71;0xf7;0x54;0xb4;0x07;0x55;0x77;0xa2;0x85;0x52]%N.
Proof. vm_compute. reflexivity. Qed.

(* second vector: the u-coordinate has bit 255 set (0x93 as last byte), exercising the mask *)
Example rfc7748_vector2 :
  x25519
    [0x4b;0x66;0xe9;0xd4;0xd1;0xb4;0x67;0x3c;0x5a;0xd2;0x26;0x91;0x95;0x7d;0x6a;0xf5;
     0xc1;0x1b;0x64;0x21;0xe0;0xea;0x01;0xd4;0x2c;0xa4;0x16;0x9e;0x79;0x18;0xba;0x0d]%N
    [0xe5;0x21;0x0f;0x12;0x78;0x68;0x11;0xd3;0xf4;0xb7;0x95;0x9d;0x05;0x38;0xae;0x2c;
     0x31;0xdb;0xe7;0x10;0x6f;0xc0;0x3c;0x3e;0xfc;0x4c;0xd5;0x49;0xc7;0x15;0xa4;0x93]%N
  = [0x95;0xcb;0xde;0x94;0x76;0xe8;0x90;0x7d;0x7a;0xad;0xe4;0x5c;0xb4;0xb8;0x73;0xf8;
     0x8b;0x59;0x5a;0x68;0x79;0x9f;0xa1;0x52;0xe6;0xf8;0xf7;0x64;0x7a;0xac;0x79;0x57]%N.
Proof. vm_compute. reflexivity. Qed.

Definition alice_sk : list N :=
  [0x77;0x07;0x6d;0x0a;0x73;0x18;0xa5;0x7d;0x3c;0x16;0xc1;0x72;0x51;0xb2;0x66;0x45;
   0xdf;0x4c;0x2f;0x87;0xeb;0xc0;0x99;0x2a;0xb1;0x77;0xfb;0xa5;0x1d;0xb9;0x2c;0x2a]%N.
Definition bob_sk : list N :=
  [0x5d;0xab;0x08;0x7e;0x62;0x4a;0x8a;0x4b;0x79;0xe1;0x7f;0x8b;0x83;0x80;0x0e;0xe6;
   0x6f;0x3b;0xb1;0x29;0x26;0x18;0xb6;0xfd;0x1c;0x2f;0x8b;0x27;0xff;0x88;0xe0;0xeb]%N.
Definition alice_bob_shared : list N :=
  [0x4a;0x5d;0x9d;0x5b;0xa4;0xce;0x2d;0xe1;0x72;0x8e;0x3b;0xf4;0x80;0x35;0x0f;0x25;
   0xe0;0x7e;0x21;0xc9;0x47;0xd1;0x9e;0x33;0x76;0xf0;0x9b;0x3c;0x1e;0x16;0x17;0x42]%N.

(* one instance of commutativity (the general statement is the hypothesis dh_comm) *)
Example rfc7748_dh_both_sides :
  x25519 alice_sk (x25519_base bob_sk) = alice_bob_shared /\
  x25519 bob_sk (x25519_base alice_sk) = alice_bob_shared.
Proof. split; vm_compute; reflexivity. Qed.
