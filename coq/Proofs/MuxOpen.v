(* On a healthy session a stream object is closed only by its own side's Close or by the
   re-sequencer reporting the closing frame in sequence order (toBeClosed).  State-level frame
   lemmas about the closed flag of one protected object (po, pid), used for C03's exactness. *)
From Coq Require Import NArith ZArith List Bool Lia.
From Coq Require Import ZifyN ZifyBool.
From Cloak Require Import Model.Reorder Model.Mux Proofs.MuxBase Proofs.MuxSafety Proofs.MuxCalm Proofs.MuxCount Proofs.MuxUp.
Import ListNotations.
Local Open Scope N_scope.

Section Open.
Variable k : nat.
Variable po : side.
Variable pid : N.

(* the protected object is open or does not exist (yet) *)
Definition oa (y : sys) : Prop :=
  match lookup pid (se_objs (sess y po)) with Some st => st_closed st = false | None => True end.

Lemma oa_same y y' : se_objs (sess y' po) = se_objs (sess y po) -> oa y -> oa y'.
Proof. unfold oa. intros ->. auto. Qed.

Lemma oa_set_conns y cs : oa y -> oa (set_conns y cs).
Proof. unfold oa. now rewrite sess_set_conns. Qed.
Lemma oa_set_pend y p : oa y -> oa (set_pend y p).
Proof. unfold oa. now rewrite sess_set_pend. Qed.

(* the same, said of the session: what the lemmas about moves speak of *)
Definition open_in (se : session) : Prop :=
  match lookup pid (se_objs se) with Some st => st_closed st = false | None => True end.
Lemma oa_open_in y : oa y = open_in (sess y po).
Proof. reflexivity. Qed.

(* A move keeps the protected object open unless it marks it or tears its session down: slot pid is
   written only by sm_obj (keeps the flag), sm_mark (excluded: no permission to mark pid) and sm_add
   (a new stream is open). *)
Lemma smove_open P se se' : smove P se se' -> ~ P (Mark pid) -> open_in se -> open_in se'.
Proof.
  unfold open_in. intros Hm Hn Ho.
  destruct Hm as [q n ts|id st st' El Hc _ _|id st w Hmk El Hc|id st El Hc Ht|id q n _ _];
    unfold add_stream; cbn [se_objs upd_timers upd_nextsid upd_acceptq upd_objs upd_tab upd_count];
    try exact Ho; rewrite lookup_update; destruct (pid =? id) eqn:E; try exact Ho;
    try (assert (pid = id) by lia; subst id).
  - rewrite El in Ho. congruence.
  - contradiction.
  - reflexivity.
Qed.

Lemma atom_oa s P y y' :
  atom s P y y' -> (s = po -> ~ P (Mark pid)) -> (P Close -> se_closed (sess y' po) = false) -> oa y -> oa y'.
Proof.
  intros Ha Hn Hop Hoa. rewrite oa_open_in in *.
  destruct (atom_cases _ _ _ _ Ha) as (Ho & Hs).
  destruct (side_cases po s) as [E|E]; [|rewrite E, Ho, <- E; exact Hoa].
  subst s. destruct Hs as [->|[Hm|(Hc & Hcl & _)]]; [exact Hoa|eapply smove_open; eauto|].
  rewrite (Hop Hc) in Hcl. discriminate.
Qed.

(* closed is monotone: a session that is open after the moves was open all along *)
Lemma moves_oa A P y y' :
  moves A P y y' -> ~ P po (Mark pid) -> se_closed (sess y' po) = false -> oa y -> oa y'.
Proof.
  intros Hm Hn Hop Hoa.
  refine (moves_inv A P (fun z => se_closed (sess z po) = false -> oa z) _ y y' Hm (fun _ => Hoa) Hop).
  intros s a b _ Ha Hi Hb. eapply atom_oa; [exact Ha|intros ->; exact Hn|intros _; exact Hb|]. apply Hi.
  destruct (se_closed (sess a po)) eqn:E; [|reflexivity].
  rewrite (proj1 (atom_closed _ _ _ _ po Ha) E) in Hb. discriminate.
Qed.

Lemma resolve_oa ps y y' ps' evs : resolve ps y = (y', ps', evs) -> oa y -> oa y'.
Proof.
  intros H. apply (moves_inv (fun _ => True) (fun _ _ => False)); [|eapply resolve_moves; eauto].
  intros s a b _ Ha. eapply atom_oa; [exact Ha|auto|intros []].
Qed.

(* the delivery step on a state where the object exists and is open *)
Lemma deliver_protected y0 st fr ch y' ch' evs :
  deliver y0 po fr ch = (y', ch', evs) -> Healthy k y0 -> w_sid fr = pid ->
  lookup pid (se_objs (sess y0 po)) = Some st -> st_closed st = false ->
  let '(rb', tbc, _) := rb_write (st_rb st) (mkF (w_seq fr) (negb (w_cl fr =? 0)) (w_pay fr)) in
  exists st', lookup pid (se_objs (sess y' po)) = Some st' /\ st_closed st' = tbc /\
              st_rb st' = (if tbc then rb_close rb' else rb') /\
              (tbc = false -> evs = [] /\ sy_conns y' = sy_conns y0).
Proof.
  unfold deliver. intros H Hh0 Hsid El Eop. rewrite Hsid, El in H.
  destruct (rb_write (st_rb st) _) as [[rb' tbc] er]. cbv zeta in H.
  set (y1 := set_sess y0 po _) in H.
  assert (El1 : lookup pid (se_objs (sess y1 po)) = Some (st_set_rb st rb')).
  { unfold y1. rewrite sess_set_same. cbn [se_objs upd_objs]. apply lookup_update_eq. }
  pose proof (rb_store_H k y0 po pid st rb' Hh0 El) as Hh1. fold y1 in Hh1.
  destruct tbc.
  - destruct (close_stream y1 po pid false ch) as [[[y2 ch2] evs2] rc] eqn:Ecs. injection H as <- _ _.
    (* the passive close: the object is marked, its entry forgotten; multiplexed, so the session stays *)
    destruct (close_stream_cases _ _ _ _ _ _ _ _ _ Ecs) as [(_ & _ & Hcl)|(st0 & y3 & ch3 & evs3 & ok & El0 & _ & Ee & Ht)].
    { specialize (Hcl _ El1). cbn in Hcl. congruence. }
    rewrite El1 in El0. injection El0 as <-. cbv zeta in Ee, Ht. injection Ee as <- _ _ <-.
    destruct (Healthy_sess k y1 po Hh1) as (_ & _ & K3 & _).
    destruct Ht as [(Hx & _)|(_ & [[(ts & ->) _]|(ch4 & evs4 & rc4 & Hsp & _)])]; [discriminate| |].
    + exists (mkS (st_seq st) (st_wcl st) true (rb_close rb')). split; [|split; [reflexivity|split; [reflexivity|discriminate]]].
      rewrite !sess_set_same. cbn [se_objs upd_timers upd_count upd_tab upd_objs]. apply lookup_update_eq.
    + rewrite sess_set_same in Hsp. cbn in Hsp. congruence.
  - injection H as <- _ <-. exists (st_set_rb st rb'). split; [exact El1|split; [exact Eop|split; [reflexivity|]]].
    intros _. split; [reflexivity|]. unfold y1. apply conns_set_sess.
Qed.

(* a frame of the protected stream reaches its re-sequencer: the object afterwards, exactly *)
Lemma recv_frame_own y fr ch y' ch' evs :
  recv_frame y po fr ch = (y', ch', evs) -> Healthy k y -> valid_picks k ch -> WF y -> CIs y ->
  w_cl fr <> 2 -> w_sid fr = pid -> oa y ->
  let rb0 := match lookup pid (se_objs (sess y po)) with Some st => st_rb st | None => rb_init 0 end in
  let '(rb', tbc, _) := rb_write rb0 (mkF (w_seq fr) (negb (w_cl fr =? 0)) (w_pay fr)) in
  exists st', lookup pid (se_objs (sess y' po)) = Some st' /\ st_closed st' = tbc /\
              st_rb st' = (if tbc then rb_close rb' else rb') /\
              (tbc = false -> evs = [] /\ sy_conns y' = sy_conns y).
Proof.
  rewrite recv_frame_eq. intros H Hh Hv Hwf Hci Hcl Hsid Hoa.
  replace (w_cl fr =? 2) with false in H by lia.
  destruct (Healthy_sess k y po Hh) as (H1 & H2 & H3 & H4 & H5). rewrite H1, Hsid in H.
  destruct (Hci po H1) as (_ & _ & T2 & T3).
  destruct (WF_sess y po Hwf) as (Hobj & _).
  destruct (lookup pid (se_tab (sess y po))) as [[|]|] eqn:Et.
  - destruct (T2 pid Et) as (st & El & Eop). cbn zeta. rewrite El.
    exact (deliver_protected _ _ _ _ _ _ _ H Hh Hsid El Eop).
  - (* a closed-and-forgotten stream: impossible while the object is open or absent *)
    exfalso. unfold oa in Hoa.
    destruct (lookup pid (se_objs (sess y po))) as [st|] eqn:El.
    + destruct (Hobj _ _ El) as (_ & Hop & _). rewrite (Hop Hoa) in Et. discriminate.
    + apply (T3 pid); [rewrite Et; discriminate|exact El].
  - assert (Enone : lookup pid (se_objs (sess y po)) = None).
    { destruct (lookup pid (se_objs (sess y po))) as [st|] eqn:El; [|reflexivity].
      destruct (Hobj _ _ El) as (_ & _ & H3'). specialize (H3' H1). congruence. }
    cbn zeta. rewrite Enone. set (y1 := set_sess y po _) in H.
    assert (El' : lookup pid (se_objs (sess y1 po)) = Some new_stream).
    { unfold y1. rewrite sess_set_same. apply lookup_update_eq. }
    pose proof (deliver_protected _ _ _ _ _ _ _ H (add_stream_H k y po _ _ _ Hh) Hsid El' eq_refl) as Hd.
    change (st_rb new_stream) with (rb_init 0) in Hd.
    destruct (rb_write (rb_init 0) _) as [[rb' tbc] er]. destruct Hd as (st' & A1 & A2 & A3 & A4).
    exists st'. split; [exact A1|split; [exact A2|split; [exact A3|]]].
    intros Ht. destruct (A4 Ht) as [B1 B2]. split; [exact B1|]. rewrite B2. apply conns_set_sess.
Qed.

(* the label that may close the protected object *)
Definition closes_it (y : sys) (l : label) : Prop :=
  match l with
  | LCloseStream x sid => x = po /\ sid = pid
  | LDeliver x c =>
      x = po /\ exists cn fr q, nthN (N.to_nat c) (sy_conns y) = Some cn /\ conn_q cn po = fr :: q /\ w_sid fr = pid
  | _ => False
  end.

Lemma closes_it_marks y l : closes_it y l <-> marks y l po pid.
Proof. destruct l; cbn; try tauto; (split; [intros [-> H]|intros [<- H]]); try subst; auto. Qed.

Lemma step_core_oa y l ch y' evs :
  step_core y l ch = (y', evs) -> busy_at y l -> Healthy k y -> CIs y -> valid_picks k ch ->
  ~ closes_it y l -> oa y -> oa y'.
Proof.
  intros H Hb Hh Hci Hv Hnc Hoa.
  set (P := fun x a => match a with Mark id => marks y l x id | _ => True end).
  assert (Hm : moves (fun _ => True) P y y').
  { eapply step_core_moves; [exact H|exact (fun _ => I)|]. unfold P. repeat split; auto. }
  refine (moves_oa _ _ _ _ Hm _ _ Hoa).
  - unfold P. intros Hmk. apply Hnc, closes_it_marks, Hmk.
  - apply (Healthy_sess k y' po). eapply busy_step_core; eauto.
Qed.

Lemma step_oa y l ch y' evs :
  step y l ch = (y', evs) -> busy_at y l -> Healthy k y -> CIs y -> valid_picks k ch ->
  ~ closes_it y l -> oa y -> oa y'.
Proof.
  unfold step. intros H Hb Hh Hci Hv Hnc Hoa. destruct (step_core y l ch) as [y1 evs1] eqn:Es.
  destruct (resolve (sy_pend y1) y1) as [[y2 ps] evs2] eqn:Er. injection H as <- _.
  apply oa_set_pend. eapply resolve_oa; [exact Er|]. eapply step_core_oa; eauto.
Qed.
End Open.
