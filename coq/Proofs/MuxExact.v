(* C03, exactness: on a healthy session, if the reader's end of a stream is closed and the reader did
   not close it itself, then the writer has closed the stream and what the reader has read plus what
   still waits in its pipe is EXACTLY what the writer's writes accepted: never an early end, never
   a lost tail, whichever connections the data and the closing notice travelled on. *)
From Coq Require Import NArith ZArith List Bool Lia Sorting.Permutation.
From Coq Require Import ZifyN ZifyBool.
From Cloak Require Import Model.Reorder Model.Mux Proofs.Reorder Proofs.ReorderExt Proofs.MuxBase Proofs.MuxSafety
  Proofs.MuxView Proofs.MuxEffect Proofs.MuxPay Proofs.MuxData Proofs.MuxCalm Proofs.MuxCount
  Proofs.MuxUp Proofs.MuxCov Proofs.MuxComplete Proofs.MuxOpen.
Import ListNotations.
Local Open Scope N_scope.

Section Exact.
Variable s : side.
Variable sid : N.
Variable k : nat.
Let o := other s.
Notation inflight := (inflight s sid).
Notation sview := (sview s sid).
Notation rview := (rview s sid).
Notation keep := (keep sid).
Notation vstep := (vstep s sid).
Notation PD := (PD s sid).
Notation wfE := (wfE sid).
Notation ev_frames := (ev_frames s sid).

Definition EX (y : sys) (E : list wframe) (Rd : list N) : Prop :=
  match rview y with
  | Some (rb, true) => cl_of E <> two64 /\ Rd ++ pipe rb = cat (FE E) 0 (N.to_nat (ndata E))
  | _ => True
  end.

Definition rclosed (y : sys) : Prop := exists rb, rview y = Some (rb, true).

Lemma rview_oa y : oa o sid y <-> ~ rclosed y.
Proof.
  unfold oa, rclosed, MuxView.rview. fold o. destruct (lookup sid (se_objs (sess y o))) as [st|]; cbn.
  - destruct (st_closed st); split; intros H; try discriminate; try reflexivity.
    + exfalso. apply H. eexists. reflexivity.
    + intros (rb & Hx). discriminate.
  - split; [intros _ (rb & Hx); discriminate|auto].
Qed.

(* once the writer has emitted its closing frame nothing more is emitted *)
Lemma wfE_final E l : wfE (E ++ l) -> cl_of E <> two64 -> l = [].
Proof.
  intros Hw Hc. destruct (cl_of_last E) as [?|(E0 & lst & -> & Hcl & _)]; [contradiction|].
  destruct (Hw (length E0) lst) as (_ & _ & [H0|(_ & Hlen & _)]); [|contradiction|].
  - rewrite <- app_assoc, nth_error_app2, Nat.sub_diag; auto.
  - rewrite !app_length in Hlen. cbn in Hlen. destruct l; [reflexivity|cbn in Hlen; lia].
Qed.

Lemma EX_step b y a y' E Rd P :
  vstep b y a y' -> PD y E Rd P -> rclosed y -> EX y E Rd ->
  rclosed y' /\ EX y' (E ++ emitted [a]) (Rd ++ readout [a]).
Proof.
  intros Hv (Hw & Hs & Hn & Hg & Hnd & Hr) (rb0 & Hrv) Hex. unfold EX in Hex. rewrite Hrv in Hex. destruct Hex as [Hcl Hfull].
  assert (Hnoemit : forall q w, sview y = Some (q, w, false) -> False).
  { intros q w Hsv. destruct (Hs _ _ Hsv) as (_ & _ & Had). apply Hcl. now apply all_data_cl_of. }
  assert (Hsame : forall y2, rview y2 = rview y -> rclosed y2 /\ EX y2 (E ++ []) (Rd ++ [])).
  { intros y2 H2. split; [exists rb0; congruence|]. unfold EX. rewrite H2, Hrv, !app_nil_r. auto. }
  assert (Hrc : forall v, rclose (rview y) v -> v = rview y).
  { intros v [->|(rb & Ha & _)]; [reflexivity|]. rewrite Hrv in Ha. discriminate. }
  destruct Hv as [y y' (Hp & Hsc & Hrc')
                 |y y' q w pay Hs1 Hs2 Hp Hr2
                 |y y' q w Hs1 Hs2 Hp Hrc'
                 |y y' q w w' Hs1 Hs2 Hp Hrc'
                 |y y' l Hbt Hp Hs2 Hr2
                 |y y' fr rb c Hr1 Hr2 Hi2 Hs2
                 |y y' rb c kk d rb' Hr1 Hrd Hr2 Hi2 Hs2
                 |y y' Hs1 Hs2 Hi2 Hr2
                 |y y' Hr1 Hr2 Hi2 Hs2]; cbn [emitted readout flat_map app].
  - apply Hsame. now apply Hrc.
  - exfalso. eapply Hnoemit; eauto.
  - exfalso. eapply Hnoemit; eauto.
  - apply Hsame. now apply Hrc.
  - apply Hsame. exact Hr2.
  - (* a late frame reaches the closed re-sequencer: the pipe refuses it *)
    rewrite Hrv in Hr1. injection Hr1 as <- <-.
    assert (Hpc : pclosed rb0 = true).
    { rewrite Hrv in Hr. remember (Some (rb0, true)) as rv eqn:Ev.
      destruct Hr as [?|? ? ? ? ? ?|? ? ? ? ?|rbx kx Hp Hk Ho]; try discriminate. injection Ev as <-. exact Hp. }
    split; [eexists; exact Hr2|]. unfold EX. rewrite Hr2, !app_nil_r. split; [exact Hcl|].
    now rewrite (rb_write_closed_pipe _ _ Hpc).
  - rewrite Hrv in Hr1. injection Hr1 as <- <-.
    split; [eexists; exact Hr2|]. unfold EX. rewrite Hr2, !app_nil_r. split; [exact Hcl|].
    destruct (rb_read_data _ _ _ _ Hrd) as [_ Hpipe]. now rewrite <- app_assoc, <- Hpipe.
  - exfalso. apply Hcl. rewrite (Hn Hs1). reflexivity.
  - rewrite Hrv in Hr1. discriminate.
Qed.

Lemma EX_same_view y y' E Rd : rview y' = rview y -> EX y E Rd -> EX y' E Rd.
Proof. unfold EX. now intros ->. Qed.

Lemma ron_rclosed y : ron (rview y) <-> ~ rclosed y.
Proof.
  unfold rclosed. destruct (rview y) as [[rb [|]]|]; cbn; split; try tauto; try (intros _ (? & Hx); discriminate).
  intros H. apply H. eauto.
Qed.
Lemma rclosed_dec y : rclosed y \/ ~ rclosed y.
Proof.
  unfold rclosed. destruct (rview y) as [[rb [|]]|]; [left; eauto|right; intros (? & Hx); discriminate..].
Qed.
Lemma not_rclosed_EX y E Rd : ~ rclosed y -> EX y E Rd.
Proof.
  intros H. unfold EX. destruct (rview y) as [[rb [|]]|] eqn:Erv; auto. exfalso. apply H. exists rb. exact Erv.
Qed.

(* Once the reader's end is closed, (PD, closed, EX) together are preserved by every visible action, so only
   the label that closes it needs an argument on the state (EX_label). *)
Definition EXc (y : sys) (E : list wframe) (Rd : list N) (P : list wframe) : Prop :=
  PD y E Rd P /\ rclosed y /\ EX y E Rd.
Lemma EXc_step b y a y' E Rd P P' :
  vstep b y a y' -> EXc y E Rd P -> fits (E ++ emitted [a]) -> takes a P P' ->
  EXc y' (E ++ emitted [a]) (Rd ++ readout [a]) P'.
Proof.
  intros Hv (Hpd & Hc & Hex) Hb HP. split; [eapply PD_step; eauto|eapply EX_step; eauto].
Qed.
Lemma EXc_view y y' E Rd P :
  inflight y' = inflight y -> sview y' = sview y -> rview y' = rview y -> EXc y E Rd P -> EXc y' E Rd P.
Proof.
  intros Hi Hs Hr (Hpd & (rb & Hc) & Hex).
  split; [eapply PD_same_view; eauto|split; [exists rb; congruence|eapply EX_same_view; eauto]].
Qed.

(* the buffer it is written into: the reader's, or that of the object the frame creates *)
Definition rbuf0 (y : sys) : rbuf := match rview y with Some (rb, _) => rb | None => rb_init 0 end.

(* on a healthy session the reader's end is closed afterwards iff the re-sequencer reports toBeClosed,
   and otherwise nothing else happens *)
Lemma deliver_own y c cn fr q ch yc ec :
  step_core y (LDeliver o c) ch = (yc, ec) -> nthN (N.to_nat c) (sy_conns y) = Some cn ->
  conn_q cn o = fr :: q -> w_sid fr = sid ->
  valid_picks k ch -> Healthy k y -> WF y -> CIs y -> ~ rclosed y ->
  let '(rb', tbc, _) := rb_write (rbuf0 y) (to_frame fr) in
  keep fr = true /\ rview yc = Some (if tbc then rb_close rb' else rb', tbc) /\
  (tbc = false -> ev_frames ec = [] /\
     inflight yc = inflight (set_conns y (setN (N.to_nat c) (conn_set_q cn o q) (sy_conns y)))).
Proof.
  intros Ec En Eq Hsid Hvp Hh Hwf Hci Hnc.
  assert (Hoa : oa o sid y) by (apply rview_oa; exact Hnc).
  rewrite step_core_deliver, En in Ec.
  pose proof Hh as (_ & _ & Hcs & _). rewrite (conn_healthy_up cn o (Hcs _ _ En)), Eq in Ec.
  set (y0 := set_conns y (setN (N.to_nat c) (conn_set_q cn o q) (sy_conns y))) in *.
  destruct (recv_frame y0 o fr ch) as [[y2 ch2] evs2] eqn:Erf. injection Ec as <- <-.
  destruct (deliver_pop_H k y c cn o fr q Hh En Eq) as [Hh0 Hcl2].
  pose proof (WF_set_q y o _ cn q Hwf En) as Hwf0. fold y0 in Hwf0.
  pose proof (recv_frame_own k o sid y0 fr ch _ _ _ Erf Hh0 Hvp Hwf0 (CIs_set_conns _ _ Hci) Hcl2 Hsid (oa_set_conns _ _ _ _ Hoa)) as Hown.
  cbv zeta in Hown. unfold y0 in Hown at 1. rewrite sess_set_conns in Hown.
  change (mkF (w_seq fr) (negb (w_cl fr =? 0)) (w_pay fr)) with (to_frame fr) in Hown.
  assert (Hrb : rbuf0 y = match lookup sid (se_objs (sess y o)) with Some st => st_rb st | None => rb_init 0 end).
  { unfold rbuf0. rewrite (rview_def s sid). fold o. destruct (lookup sid (se_objs (sess y o))); reflexivity. }
  rewrite Hrb. destruct (rb_write _ (to_frame fr)) as [[rb' tbc] er'].
  destruct Hown as (st' & El' & Ec' & Erb' & Hquiet).
  split; [unfold MuxView.keep; rewrite Hsid, N.eqb_refl, (proj2 (N.eqb_neq _ _) Hcl2); reflexivity|].
  split; [rewrite (rview_def s sid); fold o; rewrite El'; cbn; unfold rv; now rewrite Ec', Erb'|].
  intros ->. destruct (Hquiet eq_refl) as [-> Hconns]. split; [reflexivity|].
  unfold MuxView.inflight. now rewrite Hconns.
Qed.

(* the delivery that lets the re-sequencer report toBeClosed *)
Lemma closing_delivery y E Rd fr rb' er :
  PD y E Rd [fr] -> ~ rclosed y -> rb_write (rbuf0 y) (to_frame fr) = (rb', true, er) -> nE E + 2 < two64 ->
  cl_of E <> two64 /\ Rd ++ pipe rb' = cat (FE E) 0 (N.to_nat (ndata E)).
Proof.
  intros (Hw & Hs & Hn & Hg & Hnd & Hr) Hnc Hwr Hb.
  assert (Hbb : nE E + 1 < two64) by lia.
  assert (Hfr : In fr (inflight y ++ [fr])) by (apply in_or_app; right; now left).
  pose proof (Hg _ Hfr) as Hgf.
  (* an invariant for the buffer *)
  assert (HI : exists A, Inv (FE E) (cl_of E) 0 A (rbuf0 y) Rd /\ (forall i, In i A -> i < nE E) /\ ~ In (w_seq fr) A).
  { unfold rbuf0. destruct (rview y) as [[rb [|]]|] eqn:Erv; [exfalso; apply Hnc; eexists; exact Erv| |].
    - remember (Some (rb, false)) as rv eqn:Ev.
      destruct Hr as [Hr0|rbx A Hp HI HA Hd|rbx Hp Hcl Ho Hi|rbx kx Hp Hkx Ho]; try discriminate; injection Ev as ->.
      + exists A. split; [exact HI|split; [exact HA|apply Hd; exact Hfr]].
      + exfalso. apply app_eq_nil in Hi as [_ Hx]. discriminate Hx.
    - remember (@None (rbuf * bool)) as rv eqn:Ev.
      destruct Hr as [Hr0|rbx A Hp HI HA Hd|rbx Hp Hcl Ho Hi|rbx kx Hp Hkx Ho]; try discriminate.
      subst Rd. exists []. split; [apply Inv_init|split; [intros i []|intros []]]. }
  destruct HI as (A & HI & HA & Hni).
  destruct (arrive_pres sid E A _ Rd fr Hw Hbb Hgf HI HA Hni) as (st' & c' & Hwr' & _ & HcT).
  rewrite Hwr in Hwr'. injection Hwr' as <- <- _. now destruct (HcT eq_refl) as (_ & Hcl & Hout).
Qed.

Lemma closes_it_dec y l : closes_it o sid y l \/ ~ closes_it o sid y l.
Proof.
  destruct l as [x|x sid' data|x sid' n|x|x sid'|x|x c|c|d|c|x c]; cbn; try (right; tauto).
  - destruct (side_dec x o) as [->|Hne]; [|right; tauto].
    destruct (N.eq_dec sid' sid) as [->|Hne]; [left; auto|right; tauto].
  - destruct (side_dec x o) as [->|Hne]; [|right; tauto].
    destruct (nthN (N.to_nat c) (sy_conns y)) as [cn|] eqn:En; [|right; intros (_ & cn & fr & q & Hx & _); discriminate].
    destruct (conn_q cn o) as [|fr q] eqn:Eq; [right; intros (_ & cn' & fr & q & Hx & Hq & _); congruence|].
    destruct (N.eq_dec (w_sid fr) sid) as [Hs|Hs].
    + left. split; [reflexivity|]. exists cn, fr, q. auto.
    + right. intros (_ & cn' & fr' & q' & Hx & Hq & Hs'). apply Hs. congruence.
Qed.

Lemma EX_label y l ch y' evs E Rd :
  step y l ch = (y', evs) -> busy_at y l -> valid_picks k ch -> Healthy k y -> WF y -> CIs y ->
  PD y E Rd [] -> EX y E Rd -> fresh_at y l -> l <> LCloseStream o sid ->
  nE (E ++ ev_frames evs) + 2 < two64 ->
  EX y' (E ++ ev_frames evs) (Rd ++ step_reads s sid l evs).
Proof.
  intros H Hbusy Hvp Hh Hwf Hci Hpd Hex Hfresh Hnl Hb.
  destruct (step_split s sid _ _ _ _ _ H) as (yc & ec & yr & ps & er & Ec & Er & -> & HE & HR).
  rewrite HE, HR, !app_assoc. rewrite HE, app_assoc in Hb. pose proof (fits_prefix _ _ Hb) as Hb1.
  pose proof (PD_core s sid _ _ _ _ _ _ _ Ec Hwf Hpd Hfresh Hb1) as Hpdc.
  (* it is enough to know the reader's end after the core part *)
  enough (Hfin : (rclosed yc /\ EX yc (E ++ ev_frames ec) (Rd ++ core_reads s sid l ec)) \/ ~ rclosed yc).
  { destruct Hfin as [[Hc Hx]|Hnc].
    - exact (proj2 (proj2 (inv_resolve s sid false EXc fits fits_prefix (EXc_step false) EXc_view yc _ _ _ _ _ Er
                             (conj Hpdc (conj Hc Hx)) Hb1))).
    - apply not_rclosed_EX. intros Hc. apply rview_oa in Hnc.
      exact (proj1 (rview_oa _) (oa_set_pend o sid yr ps (resolve_oa o sid _ _ _ _ _ Er Hnc)) Hc). }
  destruct (rclosed_dec y) as [Hc|Hnc].
  - left. refine (proj2 (inv_core s sid (droppy l) EXc fits fits_prefix (EXc_step _) y l E Rd eq_refl Hwf Hfresh
                    (fun q w => PD_wcl s sid _ _ _ _ q w Hpd) (conj Hpd (conj Hc Hex)) _ _ ch yc ec Ec Hb1)).
    + intros fr y1 Hk Hperm Hs1 Hr1. destruct Hc as (rb & Hc).
      split; [now apply (PD_pop s sid y)|split; [exists rb; congruence|eapply EX_same_view; eauto]].
    + intros fr yc' E' Rd' (H1 & H2). split; [eapply PD_drop_P; eauto|exact H2].
  - assert (Hoa : oa o sid y) by (apply rview_oa; exact Hnc).
    destruct (closes_it_dec y l) as [Hcl|Hncl].
    2:{ right. apply rview_oa. eapply step_core_oa; eauto. }
    destruct l as [x|x sid' data|x sid' n|x|x sid'|x|x c|c|d|c|x c]; cbn in Hcl; try contradiction.
    { destruct Hcl as [-> ->]. exfalso. apply Hnl. reflexivity. }
    destruct Hcl as (-> & cn & fr & q & En & Eq & Hsid).
    (* the delivery of a frame of this stream to its re-sequencer *)
    pose proof (deliver_own y c cn fr q ch yc ec Ec En Eq Hsid Hvp Hh Hwf Hci Hnc) as Hown.
    destruct (rb_write (rbuf0 y) (to_frame fr)) as [[rb' tbc] er'] eqn:Ewr. destruct Hown as (Hk & Hrvc & _).
    destruct tbc; [left|right; intros (rb & Hx); rewrite Hrvc in Hx; discriminate].
    split; [eexists; exact Hrvc|].
    destruct (pop_view s sid y _ cn fr q En Eq Hk) as (Hperm & Hs1 & Hr1).
    pose proof (PD_pop s sid _ _ _ _ _ Hpd Hperm Hs1 Hr1) as Hpd0.
    destruct (closing_delivery _ E Rd fr rb' er' Hpd0) as [Hcle Hfull].
    { intros (rb & Hx). apply Hnc. exists rb. congruence. }
    { unfold rbuf0 in *. rewrite Hr1. exact Ewr. }
    { apply (fits_prefix _ _ Hb1). }
    (* nothing was emitted or read in the core part of this label *)
    assert (Hl1 : ev_frames ec = []) by (destruct Hpdc as (Hw' & _); eapply wfE_final; [exact Hw'|exact Hcle]).
    rewrite Hl1. cbn [core_reads]. rewrite !app_nil_r. unfold EX. rewrite Hrvc. split; assumption.
Qed.

Definition no_local_close (ls : list (label * list N)) : Prop :=
  Forall (fun lc : label * list N => fst lc <> LCloseStream o sid) ls.

(* the side conditions of the C03 theorems, as they travel along a run: a healthy run in which the stream is
   never closed by its own reader (if it gets closed, the other side did it: "foreign") *)
Definition foreign_run (y : sys) (ls : list (label * list N)) : Prop := busy_fresh k y ls /\ no_local_close ls.
Lemma foreign_run_next y l ch t : foreign_run y ((l, ch) :: t) -> foreign_run (fst (step y l ch)) t.
Proof. intros [H1 H2]. split; [now apply busy_fresh_next|now inversion H2]. Qed.

Lemma EX_run ls y y' os E Rd :
  run y ls = (y', os) -> sound k y -> PD y E Rd [] -> EX y E Rd -> foreign_run y ls ->
  nE (E ++ run_frames s sid os) + 2 < two64 ->
  PD y' (E ++ run_frames s sid os) (Rd ++ run_reads s sid ls os) [] /\
  EX y' (E ++ run_frames s sid os) (Rd ++ run_reads s sid ls os).
Proof.
  intros H Hs Hpd Hex HR Hb.
  apply (inv_run s sid (fun y E Rd => sound k y /\ PD y E Rd [] /\ EX y E Rd) fits foreign_run fits_prefix foreign_run_next)
    with (ls := ls) (y := y); auto.
  intros y0 l ch t y1 evs E0 Rd0 [HR0 Hnl] Hst (Hs0 & Hpd0 & Hex0) Hb0.
  pose proof HR0 as [[Hf _] (Hbusy & Hv & _)]. pose proof Hs0 as (Hwf & Hci & Hh). inversion Hnl as [|? ? Hn1 _]; subst.
  split; [eapply sound_step; eauto|split; [eapply PD_label; eauto|eapply EX_label; eauto]].
Qed.
End Exact.

(* C03: on a healthy session, a reader whose end of the stream is closed without having closed it
   itself has been given, or still finds in its pipe, exactly the bytes the writer's writes accepted
   - and the writer did close the stream *)
Theorem close_is_exact s sid k unit toA toB ls rb :
  (1 <= k)%nat -> 1 <= unit ->
  fresh_run (init k false unit toA toB) ls -> busy_run k (init k false unit toA toB) ls ->
  no_local_close s sid ls ->
  let os := outputs k false unit toA toB ls in
  let y := reach k false unit toA toB ls in
  nE (run_frames s sid os) + 2 < two64 ->
  rview s sid y = Some (rb, true) ->
  cl_of (run_frames s sid os) <> two64 /\
  run_written s sid ls os = run_reads s sid ls os ++ pipe rb.
Proof.
  intros Hk Hu Hf Hbusy Hnl os y Hb Hrv. unfold os, y, outputs, reach in *.
  destruct (run (init k false unit toA toB) ls) as [y' os'] eqn:Er. cbn [fst snd] in *.
  destruct (EX_run s sid k ls _ _ _ [] [] Er (init_sound k unit toA toB Hk Hu) (PD_init s sid _ _ _ _ _)) as [Hpd Hex];
    try assumption; [|repeat split; assumption|].
  { unfold EX. replace (rview s sid (init k false unit toA toB)) with (@None (rbuf * bool)); [exact I|].
    unfold MuxView.rview. destruct s; reflexivity. }
  cbn [app] in Hpd, Hex. unfold EX in Hex. rewrite Hrv in Hex. destruct Hex as [Hcl Hfull].
  split; [exact Hcl|].
  rewrite <- (run_payload s sid ls _ _ _ [] [] Er (init_WF _ _ _ _ _) (PD_init s sid _ _ _ _ _) Hf Hb).
  destruct Hpd as (Hw & _).
  rewrite <- (data_bytes_all sid _ Hw). unfold data_bytes. rewrite Hfull.
  symmetry. apply cat_FE. pose proof (ndata_le (run_frames s sid os')). unfold nE in *. lia.
Qed.

(* non-vacuity: the closing notice overtakes the data on another connection *)
Definition exact_example_run : list (label * list N) :=
  [(LOpen SA, []); (LWrite SA 1 [7; 8; 9], [0]); (LCloseStream SA 1, [1]);
   (LDeliver SB 1, []); (LRead SB 1 2, []); (LDeliver SB 0, []); (LRead SB 1 2, [])].
Example exact_example :
  let y := reach 2 false 331 30000000000 45000000000 exact_example_run in
  (exists rb, rview SA 1 y = Some (rb, true) /\ pipe rb = []) /\
  no_local_close SA 1 exact_example_run /\
  run_reads SA 1 exact_example_run (outputs 2 false 331 30000000000 45000000000 exact_example_run) = [7; 8; 9].
Proof.
  split; [eexists; vm_compute; split; reflexivity|]. split; [|vm_compute; reflexivity].
  unfold exact_example_run, no_local_close. repeat constructor; cbn; discriminate.
Qed.
