(* Proofs about Model/Connector.v (client.MakeSession). *)
From Coq Require Import NArith List Bool Lia.
From Cloak Require Import Model.Connector.
Import ListNotations.

Lemma count_ev_app p a b : count_ev p (a ++ b) = count_ev p a + count_ev p b.
Proof. induction a as [|e a IH]; cbn [app count_ev]; [reflexivity|]. rewrite IH. lia. Qed.
Lemma creates_app a b : creates (a ++ b) = creates a ++ creates b.
Proof. induction a as [|e a IH]; cbn [app creates]; [reflexivity|]. destruct e; cbn [app]; rewrite ?IH; reflexivity. Qed.

(* A goroutine whose attempts fail `pre` times (in any way) and then succeed with key k: it ends with
   exactly that key, hands over exactly ONE connection, paused once per failure, dialled once per
   attempt, closed the transport of every failed handshake and of nothing else. *)
Lemma conn_loop_spec : forall pre direct b k rest,
  forallb is_fail pre = true ->
  let '(evs, r) := conn_loop direct b (pre ++ AOk k :: rest) in
  r = Some k /\ count_ev is_deliver evs = 1 /\ count_ev is_sleep evs = length pre /\
  count_ev is_dial evs = S (length pre) /\ count_ev is_close evs = length (filter is_hsfail pre).
Proof.
  induction pre as [|a pre IH]; intros direct b k rest Hf.
  - cbn. repeat split; reflexivity.
  - cbn [forallb] in Hf. apply andb_prop in Hf. destruct Hf as [Ha Hf]. destruct a; try discriminate.
    + cbn [app conn_loop]. specialize (IH direct b k rest Hf). destruct (conn_loop direct b (pre ++ AOk k :: rest)) as [evs r].
      destruct IH as (A & B & C & D & E). cbn. repeat split; auto; lia.
    + cbn [app conn_loop]. specialize (IH direct (fallback direct b) k rest Hf).
      destruct (conn_loop direct (fallback direct b) (pre ++ AOk k :: rest)) as [evs r].
      destruct IH as (A & B & C & D & E). cbn. repeat split; auto; lia.
Qed.

(* while the script holds no success the goroutine is still retrying: nothing handed over *)
Lemma conn_loop_still_retrying : forall s direct b, forallb is_fail s = true ->
  snd (conn_loop direct b s) = None /\ count_ev is_deliver (fst (conn_loop direct b s)) = 0.
Proof.
  induction s as [|a s IH]; intros direct b Hf; [split; reflexivity|].
  cbn [forallb] in Hf. apply andb_prop in Hf. destruct Hf as [Ha Hf]. destruct a; try discriminate; cbn [conn_loop].
  - destruct (IH direct b Hf) as [A B]. destruct (conn_loop direct b s) as [evs r]. cbn [fst snd] in *.
    split; [exact A|]. rewrite count_ev_app. cbn. exact B.
  - destruct (IH direct (fallback direct b) Hf) as [A B]. destruct (conn_loop direct (fallback direct b) s) as [evs r]. cbn [fst snd] in *.
    split; [exact A|]. rewrite count_ev_app. cbn. exact B.
Qed.

Lemma fallback_idem direct b : fallback direct (fallback direct b) = fallback direct b.
Proof. destruct direct, b; reflexivity. Qed.

(* the signature: the configured one until the first failed handshake, its fallback ever after (chrome ->
   firefox in direct mode only; firefox, safari and the CDN transport never change) *)
Lemma conn_loop_signatures : forall s direct b,
  forall b', In b' (creates (fst (conn_loop direct b s))) -> b' = b \/ b' = fallback direct b.
Proof.
  induction s as [|a s IH]; intros direct b b' Hin; [cbn in Hin; contradiction|].
  destruct a; cbn [conn_loop] in Hin.
  - destruct (conn_loop direct b s) as [evs r] eqn:E. cbn [fst] in Hin. rewrite creates_app in Hin. cbn in Hin.
    destruct Hin as [<-|Hin]; [left; reflexivity|]. apply (IH direct b). rewrite E. exact Hin.
  - destruct (conn_loop direct (fallback direct b) s) as [evs r] eqn:E. cbn [fst] in Hin. rewrite creates_app in Hin. cbn in Hin.
    destruct Hin as [<-|Hin]; [left; reflexivity|].
    right. destruct (IH direct (fallback direct b) b') as [H|H]; [rewrite E; exact Hin|exact H|rewrite H; apply fallback_idem].
  - cbn in Hin. destruct Hin as [<-|[]]. left. reflexivity.
Qed.

Definition is_dialfail (a : attempt) := match a with ADialFail => true | _ => false end.
Lemma conn_loop_before_first_hsfail : forall pre direct b s,
  forallb is_dialfail pre = true ->
  firstn (length pre) (creates (fst (conn_loop direct b (pre ++ s)))) = repeat b (length pre).
Proof.
  induction pre as [|a pre IH]; intros direct b s Hf; [reflexivity|].
  cbn [forallb] in Hf. apply andb_prop in Hf. destruct Hf as [Ha Hf]. destruct a; try discriminate; cbn [app conn_loop].
  destruct (conn_loop direct b (pre ++ s)) as [evs r] eqn:E. cbn [fst length repeat creates firstn].
  f_equal. specialize (IH direct b s Hf). rewrite E in IH. exact IH.
Qed.

Lemma conn_loop_after_hsfail : forall direct b s b',
  In b' (creates (fst (conn_loop direct b (AHsFail :: s)))) ->
  b' = b \/ b' = fallback direct b.
Proof. intros. eapply conn_loop_signatures; eassumption. Qed.

Lemma all_some_spec : forall l ks, all_some l = Some ks -> l = map Some ks.
Proof.
  induction l as [|o l IH]; intros ks H; cbn [all_some] in H.
  - injection H as <-. reflexivity.
  - destruct o as [k|]; [|discriminate]. destruct (all_some l) as [ks'|] eqn:E; [|discriminate].
    injection H as <-. cbn [map]. f_equal. apply IH. reflexivity.
Qed.

(* MakeSession returns only when every goroutine has its connection; the session is given exactly one connection
   per goroutine; its key is one of the keys the successful handshakes returned *)
Lemma make_session_spec : forall direct b scripts order key n,
  make_session direct b scripts order = Some (key, n) ->
  n = length scripts /\
  (forall s, In s scripts -> exists k, snd (conn_loop direct b s) = Some k) /\
  (last order 0 < length scripts -> exists s, In s scripts /\ snd (conn_loop direct b s) = Some key).
Proof.
  intros direct b scripts order key n H. unfold make_session in H.
  destruct (all_some (map (fun s => snd (conn_loop direct b s)) scripts)) as [ks|] eqn:E; [|discriminate].
  apply all_some_spec in E.
  assert (Hlen : length ks = length scripts).
  { apply (f_equal (@length _)) in E. rewrite !map_length in E. symmetry. exact E. }
  destruct order as [|o order]; [discriminate|]. injection H as <- <-.
  repeat split; [exact Hlen| |].
  - intros s Hs. apply (in_map (fun s => snd (conn_loop direct b s))) in Hs. rewrite E in Hs.
    apply in_map_iff in Hs. destruct Hs as (k & Hk & _). exists k. symmetry. exact Hk.
  - intros Hlt.
    assert (Hin : In (nth (last (o :: order) 0) ks 0%N) ks) by (apply nth_In; rewrite Hlen; exact Hlt).
    apply (in_map Some) in Hin. rewrite <- E in Hin. apply in_map_iff in Hin. destruct Hin as (s & Hs & Hi).
    exists s. split; [exact Hi|exact Hs].
Qed.

(* non-vacuity *)
Example connector_example :
  conn_loop true Chrome [ADialFail; AHsFail; ADialFail; AOk 7%N] =
    ([GCreate Chrome; GDial; GSleep; GCreate Chrome; GDial; GHandshake; GCloseTransport; GSleep;
      GCreate Firefox; GDial; GSleep; GCreate Firefox; GDial; GHandshake; GStore 7%N; GDeliver], Some 7%N) /\
  make_session true Chrome [[AOk 7%N]; [AHsFail; AOk 7%N]; [AOk 7%N]] [2; 0; 1] = Some (7%N, 3) /\
  make_session false Chrome [[AOk 7%N]; [AHsFail]] [0; 1] = None.
Proof. repeat split; reflexivity. Qed.
