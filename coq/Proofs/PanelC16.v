(* C16: usage is charged exactly once.  The ledger invariant of the panel model. *)
From Coq Require Import ZArith NArith List Bool Lia Arith.
From Cloak Require Import Model.Panel Proofs.PanelLocks Proofs.PanelWF Proofs.PanelOwn.
Import ListNotations.
Local Open Scope Z_scope.

(* one direction of a pair: true = up (rx, UpCredit), false = down (tx, DownCredit) *)
Definition dsel (b : bool) (p : ZZ) : Z := if b then fst p else snd p.
Lemma dsel_padd : forall b x y, dsel b (padd x y) = dsel b x + dsel b y.
Proof. intros [] [? ?] [? ?]; reflexivity. Qed.
Lemma dsel_psub : forall b x y, dsel b (psub x y) = dsel b x - dsel b y.
Proof. intros [] [? ?] [? ?]; reflexivity. Qed.
Lemma dsel_pzero : forall b, dsel b pzero = 0.
Proof. intros []; reflexivity. Qed.

Fixpoint sumz (n : nat) (f : nat -> Z) : Z :=
  match n with O => 0 | S m => sumz m f + f m end.

Lemma sumz_ext : forall n f g, (forall i, (i < n)%nat -> f i = g i) -> sumz n f = sumz n g.
Proof.
  induction n as [|n IH]; cbn; intros f g H; auto.
  rewrite (IH f g), H; auto.
Qed.

Lemma sumz_zero : forall n f, (forall i, (i < n)%nat -> f i = 0) -> sumz n f = 0.
Proof. induction n as [|n IH]; cbn; intros f Hf; auto. rewrite IH, Hf; auto. Qed.

Lemma sumz_change : forall n f g i, (i < n)%nat -> (forall j, j <> i -> g j = f j) ->
  sumz n g = sumz n f - f i + g i.
Proof.
  induction n as [|n IH]; cbn; intros f g i Hi H; [lia|].
  destruct (Nat.eq_dec i n) as [->|ne].
  - rewrite (sumz_ext n g f); [lia|]. intros j Hj. apply H. lia.
  - rewrite (IH f g i); [|lia|assumption]. rewrite (H n); [lia|auto].
Qed.

Lemma sumz_spawn : forall A n (g : A -> Z) (f : nat -> A) p,
  sumz (S n) (fun t => g (upd f n p t)) = sumz n (fun t => g (f t)) + g p.
Proof.
  intros. cbn. rewrite upd_same. f_equal. apply sumz_ext. intros i Hi. now rewrite upd_other by lia.
Qed.

(* ------------------------------------------------------------------ the terms of the ledger *)
Definition vterm (b : bool) (u : N) (x : arec) : Z :=
  if N.eqb (r_uid x) u then dsel b (r_valve x) else 0.
Definition vsum (b : bool) (s : state) (u : N) : Z :=
  sumz (nrec s) (fun r => vterm b u (recs s r)).

(* usage a terminating thread has swapped out of the valve and not yet put into the queue *)
Definition lterm (b : bool) (u : N) (rs : nat -> arec) (p : pc) : Z :=
  match p with
  | TN1 r v _ _ | TN2 r v _ _ => if N.eqb (r_uid (rs r)) u then dsel b v else 0
  | _ => 0
  end.
Definition lsum (b : bool) (s : state) (u : N) : Z :=
  sumz (nthr s) (fun t => lterm b u (recs s) (thr s t)).

(* usage taken out of the queue by a commitUpdate that has not called UploadStatus yet *)
Definition iterm (b : bool) (u : N) (p : pc) : Z :=
  match p with M8 st => dsel b (qsum u st) | _ => 0 end.
Definition isum (b : bool) (s : state) (u : N) : Z :=
  sumz (nthr s) (fun t => iterm b u (thr s t)).

(* where the bytes counted for u (g_cnt) can be: charged to the bucket (g_chg), reported for a
   deleted user (g_nou), in the queue, in a valve, or in a thread (lsum, isum) *)
Definition ledger (b : bool) (s : state) (u : N) : Z :=
  dsel b (g_chg s u) + dsel b (g_nou s u) + dsel b (qsum u (queue s))
  + vsum b s u + lsum b s u + isum b s u.

(* ------------------------------------------------------------------ queue, upload *)
Lemma qsum_qadd : forall b u u' v q,
  dsel b (qsum u (qadd u' v q)) = dsel b (qsum u q) + (if N.eqb u u' then dsel b v else 0).
Proof.
  induction q as [|[x w] q IH]; cbn.
  - destruct (N.eqb u u'); rewrite ?dsel_padd, ?dsel_pzero; lia.
  - destruct (N.eqb_spec u' x) as [->|ne]; cbn.
    + destruct (N.eqb u x); rewrite ?dsel_padd; lia.
    + destruct (N.eqb u x); rewrite ?dsel_padd, IH; lia.
Qed.

Lemma upload_ledger : forall b u nw st d chg nou,
  let '(d', rs, chg', nou') := upload nw d chg nou st in
  dsel b (chg' u) + dsel b (nou' u) = dsel b (chg u) + dsel b (nou u) + dsel b (qsum u st).
Proof.
  induction st as [|[x us] st IH]; intros d chg nou; cbn.
  - rewrite dsel_pzero; lia.
  - destruct (d x) as [r|].
    + specialize (IH (updN d x (Some (mkDb (d_cap r) (wrap64 (fst (d_credit r) - fst us), wrap64 (snd (d_credit r) - snd us)) (d_exp r))))
                     (updN chg x (padd (chg x) us)) nou).
      destruct (upload _ _ _ _ st) as [[[d' rs] chg'] nou']. rewrite IH.
      unfold updN. cbn [qsum]. destruct (N.eqb_spec u x) as [->|ne]; rewrite ?dsel_padd; lia.
    + specialize (IH d chg (updN nou x (padd (nou x) us))).
      destruct (upload _ _ _ _ st) as [[[d' rs] chg'] nou']. rewrite IH.
      unfold updN. cbn [qsum]. destruct (N.eqb_spec u x) as [->|ne]; rewrite ?dsel_padd; lia.
Qed.

(* the loop of updateUsageQueue moves usage from the valves into the queue *)
Lemma nullify_all_ledger : forall b u n tb rs q,
  let '(rs', q') := nullify_all n tb rs q in
  sumz n (fun r => vterm b u (rs' r)) + dsel b (qsum u q')
  = sumz n (fun r => vterm b u (rs r)) + dsel b (qsum u q).
Proof.
  induction n as [|n IH]; intros tb rs q; cbn; [reflexivity|].
  pose proof (nullify_all_above n tb rs q n (le_n n)) as Hn.
  specialize (IH tb rs q). destruct (nullify_all n tb rs q) as [rs1 q1]. cbn [fst] in Hn.
  destruct (tb (r_uid (rs1 n))) as [r'|]; [|rewrite Hn; lia].
  destruct (Nat.eqb r' n && negb (r_bypass (rs1 n))); [|rewrite Hn; lia].
  rewrite (sumz_ext n _ (fun r => vterm b u (rs1 r))) by (intros i Hi; now rewrite upd_other by lia).
  rewrite upd_same, qsum_qadd. unfold vterm at 2. cbn [r_uid r_valve].
  rewrite <- Hn. unfold vterm at 3. rewrite (N.eqb_sym u).
  destruct (N.eqb (r_uid (rs1 n)) u); rewrite ?dsel_pzero; lia.
Qed.

(* ------------------------------------------------------------------ moving one thread *)
Lemma lterm_stable : forall b u rs rs' p n,
  (forall r, pc_rid p = Some r -> (r < n)%nat) ->
  (forall r, (r < n)%nat -> r_uid (rs' r) = r_uid (rs r)) ->
  lterm b u rs' p = lterm b u rs p.
Proof.
  intros b u rs rs' p n Hp Hu. destruct p; cbn; auto; rewrite Hu; auto; apply Hp; reflexivity.
Qed.

Lemma ledger_move : forall b u s s' t p',
  (t < nthr s)%nat -> nthr s' = nthr s -> thr s' = upd (thr s) t p' ->
  (forall t0 r, pc_rid (thr s t0) = Some r -> (r < nrec s)%nat) ->
  (forall r, (r < nrec s)%nat -> r_uid (recs s' r) = r_uid (recs s r)) ->
  ledger b s' u =
    dsel b (g_chg s' u) + dsel b (g_nou s' u) + dsel b (qsum u (queue s')) + vsum b s' u
    + (lsum b s u - lterm b u (recs s) (thr s t) + lterm b u (recs s') p')
    + (isum b s u - iterm b u (thr s t) + iterm b u p').
Proof.
  intros b u s s' t p' Ht EN ET Hpc Hu. unfold ledger, lsum, isum. rewrite EN, ET.
  rewrite (sumz_change _ (fun t0 => lterm b u (recs s) (thr s t0))
                       (fun t0 => lterm b u (recs s') (upd (thr s) t p' t0)) t Ht),
          (sumz_change _ (fun t0 => iterm b u (thr s t0)) (fun t0 => iterm b u (upd (thr s) t p' t0)) t Ht).
  - rewrite !upd_same. lia.
  - intros j Hj. now rewrite upd_other.
  - intros j Hj. rewrite upd_other by assumption. eapply lterm_stable; eauto.
Qed.

Lemma vsum_frame : forall b u s s',
  nrec s' = nrec s ->
  (forall r, (r < nrec s)%nat -> r_uid (recs s' r) = r_uid (recs s r) /\ r_valve (recs s' r) = r_valve (recs s r)) ->
  vsum b s' u = vsum b s u.
Proof.
  intros b u s s' EN H. unfold vsum. rewrite EN. apply sumz_ext. intros i Hi.
  unfold vterm. destruct (H i Hi) as [-> ->]. reflexivity.
Qed.

Lemma vsum_upd : forall b u s s' r x,
  nrec s' = nrec s -> recs s' = upd (recs s) r x -> (r < nrec s)%nat ->
  vsum b s' u = vsum b s u - vterm b u (recs s r) + vterm b u x.
Proof.
  intros b u s s' r x EN ER Hr. unfold vsum. rewrite EN, ER.
  rewrite (sumz_change (nrec s) (fun r0 => vterm b u (recs s r0)) _ r Hr).
  - cbv beta. now rewrite upd_same.
  - intros j Hj. cbv beta. now rewrite upd_other.
Qed.

Lemma vsum_new : forall b u s s' x,
  nrec s' = S (nrec s) -> recs s' = upd (recs s) (nrec s) x ->
  vsum b s' u = vsum b s u + vterm b u x.
Proof.
  intros b u s s' x EN ER. unfold vsum. rewrite EN, ER. apply (sumz_spawn _ _ (vterm b u)).
Qed.

(* ------------------------------------------------------------------ the invariant *)
Definition skip_of (p : pc) : list N :=
  match p with
  | M1 _ sk | M2 _ _ sk | M3 _ _ _ sk | M4 _ _ _ sk | M5 _ _ sk | M6 _ _ sk => sk
  | _ => []
  end.
Definition tn_of (p : pc) : option nat :=
  match inflight p with Some (inl (r, _)) => Some r | _ => None end.

(* c_ledger is the point.  c_q and c_skip serve the drain step (M1 []): commitUpdate leaves out the
   uids it skipped, all bypass, and the queue holds limited uids only, so nothing is left out;
   c_tn keeps c_q when a terminating thread puts its record's usage into the queue. *)
Record CInv (c : cfg) (s : state) : Prop := {
  c_q : forall u v, In (u, v) (queue s) -> is_bypass c u = false;
  c_skip : forall t u, In u (skip_of (thr s t)) -> is_bypass c u = true;
  c_tn : forall t r, tn_of (thr s t) = Some r -> r_bypass (recs s r) = false;
  c_ledger : forall b u, ledger b s u = dsel b (g_cnt s u)
}.

Lemma CInv_init : forall c d nw, CInv c (init d nw).
Proof.
  intros; constructor; cbn; intros; try contradiction; try discriminate.
  unfold ledger, vsum, lsum, isum; cbn. destruct b; reflexivity.
Qed.

Lemma qadd_in : forall u w u' v q, In (u, w) (qadd u' v q) -> u = u' \/ exists w', In (u, w') q.
Proof.
  induction q as [|[x y] q IH]; cbn; intros H.
  - destruct H as [H|[]]. injection H as -> _. now left.
  - destruct (N.eqb_spec u' x) as [->|ne]; cbn in H.
    + destruct H as [H|H]; [injection H as -> _; now left | right; eauto].
    + destruct H as [H|H]; [injection H as -> ->; right; eauto|].
      destruct (IH H) as [E|[w' Hw]]; [now left | right; eauto].
Qed.

Lemma nullify_all_queue : forall n tb rs q u w,
  In (u, w) (snd (nullify_all n tb rs q)) ->
  (exists w', In (u, w') q) \/ (exists r, (r < n)%nat /\ r_uid (rs r) = u /\ r_bypass (rs r) = false).
Proof.
  induction n as [|n IH]; cbn; intros tb rs q u w H; [left; eauto|].
  pose proof (nullify_all_above n tb rs q n (le_n n)) as Hn.
  specialize (IH tb rs q u). destruct (nullify_all n tb rs q) as [rs1 q1]. cbn [fst snd] in Hn, IH.
  assert (Hstep : forall w0, In (u, w0) q1 ->
            (exists w', In (u, w') q) \/ (exists r, (r < S n)%nat /\ r_uid (rs r) = u /\ r_bypass (rs r) = false)).
  { intros w0 H0. destruct (IH w0 H0) as [?|(r&?&?&?)]; [now left | right; exists r; repeat split; auto; lia]. }
  destruct (tb (r_uid (rs1 n))) as [r'|]; [|eapply Hstep; eauto].
  destruct (Nat.eqb r' n && negb (r_bypass (rs1 n))) eqn:E; cbn [snd] in H; [|eapply Hstep; eauto].
  apply qadd_in in H. destruct H as [->|[w' H]]; [|eapply Hstep; eauto].
  right. exists n. rewrite <- Hn. apply andb_prop in E. destruct E as [_ E]. apply negb_true_iff in E.
  repeat split; auto.
Qed.

Lemma skip_seq_pc : forall rest r k, skip_of (seq_pc rest r k) = [].
Proof. intros rest r k. destruct rest as [|[] ?]; cbn; auto. destruct k; auto. Qed.

(* lterm and iterm read of a pc only what it carries: so a step that keeps inflight keeps both *)
Lemma lterm_inflight : forall b u rs p,
  lterm b u rs p = match inflight p with
                   | Some (inl (r, v)) => if N.eqb (r_uid (rs r)) u then dsel b v else 0
                   | _ => 0
                   end.
Proof. destruct p; reflexivity. Qed.
Lemma iterm_inflight : forall b u p,
  iterm b u p = match inflight p with Some (inr st) => dsel b (qsum u st) | _ => 0 end.
Proof. destruct p; reflexivity. Qed.

Lemma tn_rid : forall p r, tn_of p = Some r -> pc_rid p = Some r.
Proof. destruct p; cbn; intros; try discriminate; congruence. Qed.
Lemma memN_in : forall u l, memN u l = true -> In u l.
Proof.
  induction l as [|x l IH]; cbn; [discriminate|]. destruct (N.eqb_spec u x); [subst; auto | auto].
Qed.
Lemma filter_all : forall A (f : A -> bool) l, (forall x, In x l -> f x = true) -> filter f l = l.
Proof.
  induction l as [|x l IH]; cbn; intros H; auto. rewrite (H x) by auto. f_equal. apply IH. auto.
Qed.

Lemma ledger_ext : forall b u s1 s2,
  g_chg s1 = g_chg s2 -> g_nou s1 = g_nou s2 -> queue s1 = queue s2 -> nrec s1 = nrec s2 ->
  recs s1 = recs s2 -> nthr s1 = nthr s2 -> thr s1 = thr s2 -> ledger b s1 u = ledger b s2 u.
Proof. intros b u s1 s2 E1 E2 E3 E4 E5 E6 E7. unfold ledger, vsum, lsum, isum. now rewrite E1, E2, E3, E4, E5, E6, E7. Qed.

(* commitUpdate skips a uid only after finding a bypass record for it *)
Lemma tstep_skip : forall c s t ch s' u, tstep c s t ch = Some s' -> In u (skip_of (thr s' t)) ->
  In u (skip_of (thr s t)) \/ exists r, table s u = Some r /\ r_bypass (recs s r) = true.
Proof.
  intros c s t ch s' u H. tstep_cases H c s t; sim; rewrite upd_same; unfold term_enter.
  all: try change (m9 ?k) with (seq_pc [] 0 k); rewrite ?skip_seq_pc; cbn; auto; try tauto.
  intros [<-|?]; eauto.
Qed.

Section Step.
Variable c : cfg.

Lemma tstep_CInv : forall s t ch s', (t < nthr s)%nat -> WF c s -> CInv c s -> tstep c s t ch = Some s' -> CInv c s'.
Proof.
  intros s t ch s' Ht HW [cq cs ct cl] H.
  destruct (tstep_data _ _ _ _ _ H) as (p'&d&D&E&ET&EN).
  destruct E as (Et&En&Er&_&_&Eq&_&_&_&Ecnt&Echg&Enou&_).
  pose proof (fun r => dstep_rec_frame _ _ _ _ _ r D) as Fr.
  pose proof (w_pc _ _ HW) as wp. pose proof (wp t) as Wr. pose proof (ct t) as CT.
  pose proof (fun u => tstep_skip _ _ _ _ _ u H) as SK. rewrite ET, upd_same in SK.
  remember (thr s t) as p eqn:Hpc in *.
  constructor.
  - (* the queue gets uids of limited records only *)
    rewrite Eq. clear - D cq CT Wr HW. destruct D; sim; auto; intros u0 v0 Hin.
    + apply qadd_in in Hin. destruct Hin as [->|[w' Hin]]; [|eauto].
      rewrite <- (w_bypass _ _ HW r); [apply CT | apply Wr]; reflexivity.
    + replace q' with (snd (nullify_all (nrec s) (table s) (recs s) (queue s))) in Hin by now rewrite Hnull.
      apply nullify_all_queue in Hin. destruct Hin as [[w' Hin]|(r0&L&<-&Hb)]; [eauto|].
      now rewrite <- (w_bypass _ _ HW r0 L).
    + destruct Hin.
  - intros t0 u0. rewrite ET. unfold upd. destruct (Nat.eqb t0 t); [|apply cs].
    intros Hin. destruct (SK _ Hin) as [Hs|(r&Htb&Hb)]; [rewrite Hpc in Hs; eauto|].
    destruct (w_table _ _ HW _ _ Htb) as [L <-]. now rewrite <- (w_bypass _ _ HW r L).
  - intros t0 r0. rewrite ET, Er. unfold upd. destruct (Nat.eqb_spec t0 t) as [->|ne]; intros Hr.
    + (* only Nullify makes the thread carry usage of a record, a limited one *)
      clear - D CT Hr. unfold tn_of in *. destruct D; sim; rewrite ?inflight_seq_pc in Hr; try discriminate.
      * now rewrite Hfl in Hr.
      * cbn in Hr. injection Hr as <-. now rewrite upd_same.
      * now destruct cm.
      * subst p'. now destruct st.
      * now destruct rs.
      * rewrite Hfl in Hr. auto.
    + destruct (Fr r0) as (_&Fb&_). rewrite (proj2 (Fb (wp _ _ (tn_rid _ _ Hr)))). eauto.
  - (* the ledger: read s' as d's data with thread t moved to p' (ledger_ext), take t's share out of
       the thread sums (ledger_move), then one line of arithmetic per writer *)
    intros b u. rewrite Ecnt.
    rewrite (ledger_ext b u s' (set_thr (upd (thr s) t p') (set_nthr (nthr s) d))) by (sim; congruence).
    rewrite (ledger_move b u s (set_thr (upd (thr s) t p') (set_nthr (nthr s) d)) t p' Ht eq_refl eq_refl wp)
      by (intros r L; apply Fr; exact L).
    pose proof (cl b u) as CL. unfold ledger in CL. rewrite <- Hpc. sim.
    change (vsum b (set_thr _ (set_nthr _ d)) u) with (vsum b d u).
    rewrite !lterm_inflight, !iterm_inflight. clear - D CL Wr cq SK cs HW Hpc.
    destruct D; sim; cbn [inflight]; rewrite ?inflight_seq_pc.
    + (* new record: its valve is empty *) erewrite (vsum_new b u s); [|reflexivity..]. unfold vterm; cbn.
      destruct (N.eqb u0 u); rewrite ?dsel_pzero; lia.
    + (* join *) change (vsum b _ u) with (vsum b s u). lia.
    + (* new session: valves untouched *) erewrite (vsum_frame b u s); [lia|reflexivity|]. intros r1 L; sim. unfold upd.
      destruct (Nat.eqb_spec r1 r) as [->|]; auto.
    + (* close one: counter and valve grow by the same add *) rewrite Hfl. erewrite (vsum_upd b u s); [|reflexivity..|apply Wr; reflexivity]. unfold vterm, updN; cbn.
      rewrite (N.eqb_sym u). destruct (N.eqb_spec (r_uid (recs s r)) u) as [<-|]; rewrite ?dsel_padd; lia.
    + (* nullify: valve to thread *) rewrite upd_same. erewrite (vsum_upd b u s); [|reflexivity..|apply Wr; reflexivity]. unfold vterm; cbn.
      destruct (N.eqb _ u); rewrite ?dsel_pzero; lia.
    + (* enqueue: thread to queue *) change (vsum b _ u) with (vsum b s u). rewrite qsum_qadd, (N.eqb_sym u). destruct (N.eqb _ u); lia.
    + (* close all: as close one *) erewrite (vsum_upd b u s); [|reflexivity..|apply Wr; reflexivity]. unfold vterm, updN; cbn.
      rewrite (N.eqb_sym u). destruct (N.eqb_spec (r_uid (recs s r)) u) as [<-|]; rewrite ?dsel_padd; lia.
    + (* delete *) change (vsum b _ u) with (vsum b s u). lia.
    + (* collect: the loop of updateUsageQueue moves usage from the valves into the queue *)
      pose proof (nullify_all_ledger b u (nrec s) (table s) (recs s) (queue s)) as NL. rewrite Hnull in NL.
      unfold vsum in *; sim. destruct cm; cbn; lia.
    + (* drain: queue to thread; the statuses are the whole queue: it holds limited uids only, the skipped ones are bypass uids *)
      assert (Hall : st = queue s).
      { rewrite <- Hst. apply filter_all. intros [x w] Hx. cbn. apply negb_true_iff.
        destruct (memN x skip) eqn:Em; [|reflexivity]. apply memN_in in Em.
        pose proof (cs t x) as Cx. rewrite <- Hpc in Cx. rewrite (cq _ _ Hx) in Cx. now apply Cx in Em. }
      change (vsum b _ u) with (vsum b s u). subst p'. rewrite <- Hall in CL.
      destruct st; cbn [inflight]; change (qsum u []) with pzero in *; rewrite dsel_pzero in *; lia.
    + (* upload: thread to g_chg / g_nou *)
      pose proof (upload_ledger b u (now s) st (db s) (g_chg s) (g_nou s)) as UL. rewrite Hup in UL.
      change (vsum b _ u) with (vsum b s u). destruct rs; cbn; lia.
    + (* quiet *) rewrite Hfl. lia.
Qed.

Lemma sumz_zero_tail : forall n f x, sumz (S n) (upd f n x) = sumz n f + x.
Proof. intros n f x. apply (sumz_spawn Z n (fun z => z)). Qed.

Lemma step_CInv : forall s l s', WF c s -> CInv c s -> step c s l = Some s' -> CInv c s'.
Proof.
  intros s l s' HW HC H. destruct (step_cases _ _ _ _ H) as [(t&ch&_&L&Ht)|E]; [eapply tstep_CInv; eauto|].
  destruct HC as [cq cs ct cl]. destruct E as [o p E|k v Hk _ _ _ Eb| | |]; cbv zeta; constructor; sim; auto.
  - intros t u. unfold upd. destruct (Nat.eqb t (nthr s)); [|apply cs].
    destruct (start_pc_shape _ _ _ E) as [(? & ? & ->)|[(? & ? & -> & _)|[(? & ->) | -> ]]]; intros [].
  - intros t r. unfold upd, tn_of. destruct (Nat.eqb t (nthr s)); [|apply ct].
    now rewrite (start_pc_inflight _ _ _ E).
  - intros b u. rewrite <- (cl b u). unfold ledger, lsum, isum. sim.
    rewrite (sumz_spawn _ _ (lterm b u (recs s))), (sumz_spawn _ _ (iterm b u)), lterm_inflight, iterm_inflight,
      (start_pc_inflight _ _ _ E). unfold vsum; sim. lia.
  - intros t r Hr. apply ct in Hr. unfold upd. destruct (Nat.eqb_spec r (s_owner (sess s k))) as [->|]; auto.
  - intros b u. pose proof (cl b u) as CL. unfold ledger in *.
    erewrite (vsum_upd b u s); [|reflexivity..|apply (w_ses _ _ HW), Hk]. unfold lsum, isum in *. sim.
    rewrite (sumz_ext _ _ (fun t0 => lterm b u (recs s) (thr s t0))).
    2:{ intros i Hi. apply lterm_stable with (n := nrec s); [apply (w_pc _ _ HW)|].
        intros r Lr. now apply upd_rec_fields. }
    unfold vterm, updN; cbn. rewrite (N.eqb_sym u).
    destruct (N.eqb_spec (r_uid (recs s (s_owner (sess s k)))) u) as [<-|]; rewrite ?dsel_padd; lia.
Qed.
End Step.

Lemma reachable_CInv : forall c d nw s, reachable c d nw s -> WF c s /\ CInv c s.
Proof.
  intros c d nw s [ls H].
  eapply (run_inv (fun s => WF c s /\ CInv c s)); eauto using WF_init, CInv_init.
  intros s0 l s1 [HW HC] Hs. split; [eapply step_WF; eauto | eapply step_CInv; eauto].
Qed.

(* C16_conservation: every byte the valves of user u ever counted is in exactly one place *)
Theorem conservation : forall c d nw s b u, reachable c d nw s ->
  dsel b (g_chg s u) + dsel b (g_nou s u) + dsel b (qsum u (queue s))
  + vsum b s u + lsum b s u + isum b s u = dsel b (g_cnt s u).
Proof. intros c d nw s b u HR. apply reachable_CInv in HR. destruct HR as [_ HC]. apply (c_ledger _ _ HC). Qed.

(* at quiescence no usage is in flight in any thread *)
Lemma quiescent_sums : forall s b u, quiescent s -> lsum b s u = 0 /\ isum b s u = 0.
Proof.
  intros s b u HQ. unfold lsum, isum. split; apply sumz_zero; intros i Hi; now rewrite (HQ i Hi).
Qed.

Lemma vsum_zero : forall b s u,
  (forall r, (r < nrec s)%nat -> r_uid (recs s r) = u -> r_valve (recs s r) = pzero) -> vsum b s u = 0.
Proof.
  intros b s u H. apply sumz_zero. intros i Hi. unfold vterm. destruct (N.eqb_spec (r_uid (recs s i)) u); auto.
  rewrite (H i Hi e). apply dsel_pzero.
Qed.

(* once traffic has stopped and an upload has completed: what was counted has been reported *)
Theorem exact_when_collected : forall c d nw s b u, reachable c d nw s -> quiescent s ->
  qsum u (queue s) = pzero ->
  (forall r, (r < nrec s)%nat -> r_uid (recs s r) = u -> r_valve (recs s r) = pzero) ->
  dsel b (g_chg s u) + dsel b (g_nou s u) = dsel b (g_cnt s u).
Proof.
  intros c d nw s b u HR HQ Hq Hv. pose proof (conservation c d nw s b u HR) as C.
  destruct (quiescent_sums s b u HQ) as [E1 E2]. rewrite E1, E2, (vsum_zero b s u Hv), Hq, dsel_pzero in C. lia.
Qed.

(* the collection step empties the valve of every record activeUsers holds (limited users) *)
Lemma nullify_all_zeroes : forall n tb rs q r,
  (r < n)%nat -> tb (r_uid (rs r)) = Some r -> r_bypass (rs r) = false ->
  r_valve (fst (nullify_all n tb rs q) r) = pzero.
Proof.
  induction n as [|n IH]; intros tb rs q r Hr Ht Hb; [lia|]. cbn.
  pose proof (nullify_all_above n tb rs q n (le_n n)) as Hn.
  specialize (IH tb rs q r). destruct (nullify_all n tb rs q) as [rs1 q1]. cbn [fst] in Hn, IH.
  destruct (Nat.eq_dec r n) as [->|ne].
  - rewrite Hn, Ht, Nat.eqb_refl, Hb. cbn. now rewrite upd_same.
  - assert (Hlt : (r < n)%nat) by lia.
    destruct (tb (r_uid (rs1 n))) as [r'|]; [|cbn; auto].
    destruct (_ && _); cbn; [rewrite upd_other by assumption|]; auto.
Qed.

Theorem update_zeroes_active : forall c s t ch s' cm r,
  thr s t = U2 cm -> tstep c s t ch = Some s' ->
  (r < nrec s)%nat -> table s (r_uid (recs s r)) = Some r -> r_bypass (recs s r) = false ->
  r_valve (recs s' r) = pzero.
Proof.
  intros c s t ch s' cm r Hpc H Hr Ht Hb. unfold tstep in H. rewrite Hpc in H.
  pose proof (nullify_all_zeroes (nrec s) (table s) (recs s) (queue s) r Hr Ht Hb) as Z.
  destruct (nullify_all _ _ _ _) as [rs' q']. injection H as <-. exact Z.
Qed.

(* ------------------------------------------------------------------ the database side *)
Lemma wrap64_mod : forall z, (wrap64 z - z) mod two64 = 0.
Proof.
  intros z. unfold wrap64.
  replace ((z + two63) mod two64 - two63 - z) with ((z + two63) mod two64 - (z + two63)) by lia.
  rewrite Zminus_mod, Z.mod_mod by (unfold two64; lia). rewrite Z.sub_diag. reflexivity.
Qed.

Definition eqm (a b : Z) : Prop := (a - b) mod two64 = 0.
Lemma eqm_refl : forall a, eqm a a.
Proof. intros; unfold eqm; now rewrite Z.sub_diag. Qed.
Lemma eqm_trans : forall a b c, eqm a b -> eqm b c -> eqm a c.
Proof.
  unfold eqm; intros a b c H1 H2. replace (a - c) with ((a - b) + (b - c)) by lia.
  rewrite Zplus_mod, H1, H2. reflexivity.
Qed.
Lemma eqm_eq : forall a b a' b', a - b = a' - b' -> eqm a b -> eqm a' b'.
Proof. unfold eqm; intros a b a' b' E. now rewrite E. Qed.
Lemma eqm_add : forall a b k, eqm a b -> eqm (a + k) (b + k).
Proof. unfold eqm; intros. now replace (a + k - (b + k)) with (a - b) by lia. Qed.

(* UploadStatus: what a bucket loses is what is booked as charged (modulo 2^64: Go's int64) *)
Lemma upload_db : forall b u nw st d chg nou,
  let '(d', rs, chg', nou') := upload nw d chg nou st in
  eqm (dsel b (db_credit d' u) + dsel b (chg' u)) (dsel b (db_credit d u) + dsel b (chg u))
  /\ (d u = None -> d' u = None).
Proof.
  induction st as [|[x us] st IH]; intros d chg nou; cbn.
  - split; [apply eqm_refl | auto].
  - destruct (d x) as [r|] eqn:Ex.
    + specialize (IH (updN d x (Some (mkDb (d_cap r) (wrap64 (fst (d_credit r) - fst us), wrap64 (snd (d_credit r) - snd us)) (d_exp r))))
                     (updN chg x (padd (chg x) us)) nou).
      destruct (upload _ _ _ _ st) as [[[d' rs] chg'] nou']. destruct IH as [IH1 IH2]. split.
      * eapply eqm_trans; [exact IH1|]. unfold db_credit, updN.
        destruct (N.eqb_spec u x) as [->|ne]; [|apply eqm_refl].
        rewrite Ex. cbn [d_credit]. rewrite dsel_padd.
        eapply eqm_eq; [|exact (wrap64_mod (dsel b (d_credit r) - dsel b us))].
        destruct b; cbn [dsel fst snd]; lia.
      * intros Hn. apply IH2. unfold updN. destruct (N.eqb_spec u x); [congruence | assumption].
    + specialize (IH d chg (updN nou x (padd (nou x) us))).
      destruct (upload _ _ _ _ st) as [[[d' rs] chg'] nou']. exact IH.
Qed.

Section DB.
Variables (c : cfg) (d0 : dbmap).

(* the database side: stored credit plus what was charged is the initial credit plus what the
   administrator added, modulo 2^64 *)
Definition DInv (s : state) : Prop :=
  forall b u, eqm (dsel b (db_credit (db s) u) + dsel b (g_chg s u))
                  (dsel b (db_credit d0 u) + dsel b (g_adm s u)).

Lemma tstep_DInv : forall s t ch s', DInv s -> tstep c s t ch = Some s' -> DInv s'.
Proof.
  intros s t ch s' HD H. destruct (tstep_data _ _ _ _ _ H) as (p'&d&D&E&_).
  destruct E as (_&_&_&_&_&_&_&Edb&_&_&Echg&_&Eadm).
  unfold DInv. rewrite Edb, Echg, Eadm. destruct D; sim; try exact HD.
  intros b u. pose proof (upload_db b u (now s) st (db s) (g_chg s) (g_nou s)) as U.
  rewrite Hup in U. destruct U as [U _]. eapply eqm_trans; [exact U | apply HD].
Qed.

Lemma step_DInv : forall s l s', DInv s -> step c s l = Some s' -> DInv s'.
Proof.
  intros s l s' HD H. destruct l; cbn [step] in H.
  - destruct (start_pc s o); [|discriminate]. injection H as <-. exact HD.
  - destruct (Nat.ltb t (nthr s)); [|discriminate]. eapply tstep_DInv; eauto.
  - destruct (_ && _); [|discriminate]. destruct (r_bypass _); injection H as <-; exact HD.
  - destruct (Nat.ltb k (nses s)); [|discriminate]. injection H as <-. exact HD.
  - destruct a; injection H as <-; intros b u0; sim; specialize (HD b u0); unfold updN;
      destruct (N.eqb_spec u0 u) as [->|ne]; try exact HD.
    + eapply eqm_eq; [|exact HD]. rewrite dsel_padd, dsel_psub. lia.
    + unfold db_credit, db_write, updN in *. destruct (N.eqb_spec u0 u); [congruence|]. exact HD.
    + eapply eqm_eq; [|exact HD]. rewrite dsel_psub. unfold db_credit at 3. rewrite N.eqb_refl, dsel_pzero. lia.
    + unfold db_credit, updN in *. destruct (N.eqb_spec u0 u); [congruence|]. exact HD.
  - destruct (0 <=? d)%Z; [|discriminate]. injection H as <-. exact HD.
Qed.

Theorem stored_credit : forall nw s b u, reachable c d0 nw s ->
  eqm (dsel b (db_credit (db s) u)) (dsel b (db_credit d0 u) + dsel b (g_adm s u) - dsel b (g_chg s u)).
Proof.
  intros nw s b u [ls H].
  assert (HD : DInv s).
  { eapply (run_inv DInv); eauto using step_DInv. intros b0 u0. cbn. rewrite !dsel_pzero. apply eqm_refl. }
  eapply eqm_eq; [|exact (HD b u)]. lia.
Qed.
End DB.

(* ------------------------------------------------------------------ cut-off *)
(* the closeAllSessions step of TerminateActiveUser r closes every session record r created *)
Theorem terminate_closes_all : forall c d nw s t ch s' r rest k k',
  reachable c d nw s -> thr s t = TC1 r rest k -> tstep c s t ch = Some s' ->
  (k' < nses s)%nat -> s_owner (sess s k') = r -> s_closed (sess s' k') = true /\ r_sess (recs s' r) = [].
Proof.
  intros c d nw s t ch s' r rest k k' HR Hpc H Hk Ho. apply reachable_WF in HR.
  unfold tstep in H. rewrite Hpc in H. injection H as <-. sim. rewrite upd_same. cbn [r_sess]. split; [|reflexivity].
  destruct (s_closed (sess s k')) eqn:E; [now apply close_all_mono|].
  pose proof (w_live _ _ HR k' Hk E) as L. rewrite Ho in L. apply slook_in in L.
  eapply close_all_in; eauto.
Qed.

(* which users UploadStatus asks to terminate: for one status, exactly the property's cases *)
Lemma upload_verdict : forall nw d chg nou u us,
  let '(_, rs, _, _) := upload nw d chg nou [(u, us)] in
  (In u rs <->
   match d u with
   | None => True                                                   (* deleted *)
   | Some r => wrap64 (fst (d_credit r) - fst us) <= 0              (* upload credit used up *)
               \/ wrap64 (snd (d_credit r) - snd us) <= 0           (* download credit used up *)
               \/ d_exp r < nw                                       (* expired *)
   end).
Proof.
  intros nw d chg nou u us. cbn. destruct (d u) as [r|]; cbn; [|tauto].
  destruct (Z.leb_spec (wrap64 (fst (d_credit r) - fst us)) 0);
  destruct (Z.leb_spec (wrap64 (snd (d_credit r) - snd us)) 0);
  destruct (Z.ltb_spec (d_exp r) nw); cbn; intuition lia.
Qed.

(* only users that were reported are ever terminated by a commit *)
Lemma upload_resp_sound : forall nw st d chg nou u,
  let '(_, rs, _, _) := upload nw d chg nou st in In u rs -> In u (map fst st).
Proof.
  induction st as [|[x us] st IH]; intros d chg nou u; cbn; [tauto|].
  destruct (d x) as [r|].
  - specialize (IH (updN d x (Some (mkDb (d_cap r) (wrap64 (fst (d_credit r) - fst us), wrap64 (snd (d_credit r) - snd us)) (d_exp r))))
                   (updN chg x (padd (chg x) us)) nou u).
    destruct (upload _ _ _ _ st) as [[[d' rs] chg'] nou']. intros H. apply in_app_or in H.
    destruct H as [H|H]; [|right; auto].
    left. repeat (apply in_app_or in H; destruct H as [H|H]);
      repeat match goal with H : In _ (if ?b then _ else _) |- _ => destruct b end;
      cbn in *; intuition.
  - specialize (IH d chg (updN nou x (padd (nou x) us)) u).
    destruct (upload _ _ _ _ st) as [[[d' rs] chg'] nou']. intros [H|H]; auto.
Qed.

(* commitUpdate acts on every TERMINATE answer: the thread looks the user up and, if there is an
   active record, enters TerminateActiveUser for it *)
Lemma commit_acts_on_verdict : forall c s t ch s' u k r,
  thr s t = M10 u k -> table s u = Some r -> tstep c s t ch = Some s' ->
  thr s' t = term_enter c r k.
Proof.
  intros c s t ch s' u k r Hpc Ht H. unfold tstep in H. rewrite Hpc, Ht in H. injection H as <-.
  sim. now rewrite upd_same.
Qed.

(* ------------------------------------------------------------------ nothing is negative *)
Definition nonneg (v : ZZ) : Prop := 0 <= fst v /\ 0 <= snd v.
Lemma nonneg_padd : forall a b, nonneg a -> nonneg b -> nonneg (padd a b).
Proof. intros [? ?] [? ?] [? ?] [? ?]; split; cbn in *; lia. Qed.
Lemma nonneg_pzero : nonneg pzero.
Proof. split; cbn; lia. Qed.
Lemma nonneg_dsel : forall b v, nonneg v -> 0 <= dsel b v.
Proof. intros [] v [? ?]; cbn; auto. Qed.

Definition thr_nonneg (p : pc) : Prop :=
  match inflight p with
  | Some (inl (_, v)) => nonneg v
  | Some (inr st) => forall u v, In (u, v) st -> nonneg v
  | None => True
  end.

(* no usage anywhere is negative: valves, queue, and what the threads carry *)
Record NInv (s : state) : Prop := {
  n_valve : forall r, nonneg (r_valve (recs s r));
  n_queue : forall u v, In (u, v) (queue s) -> nonneg v;
  n_thr : forall t, thr_nonneg (thr s t)
}.

Lemma qadd_nonneg : forall u v q, nonneg v -> (forall x w, In (x, w) q -> nonneg w) ->
  forall x w, In (x, w) (qadd u v q) -> nonneg w.
Proof.
  induction q as [|[y z] q IH]; cbn; intros Hv Hq x w H.
  - destruct H as [H|[]]. injection H as _ <-. exact Hv.
  - destruct (N.eqb u y); cbn in H; destruct H as [H|H].
    + injection H as _ <-. apply nonneg_padd; eauto.
    + eauto.
    + injection H as _ <-. eauto.
    + eapply IH; eauto.
Qed.

Lemma nullify_all_nonneg : forall n tb rs q,
  (forall r, nonneg (r_valve (rs r))) -> (forall x w, In (x, w) q -> nonneg w) ->
  (forall r, nonneg (r_valve (fst (nullify_all n tb rs q) r)))
  /\ (forall x w, In (x, w) (snd (nullify_all n tb rs q)) -> nonneg w).
Proof.
  induction n as [|n IH]; intros tb rs q Hv Hq; cbn; [split; auto|].
  specialize (IH tb rs q Hv Hq). destruct (nullify_all n tb rs q) as [rs1 q1]. cbn [fst snd] in IH.
  destruct IH as [I1 I2]. destruct (tb (r_uid (rs1 n))); [|split; auto].
  destruct (_ && _); cbn [fst snd]; [|split; auto]. split.
  - intros r. unfold upd. destruct (Nat.eqb r n); [cbn; apply nonneg_pzero | apply I1].
  - apply qadd_nonneg; auto.
Qed.

Lemma close_all_cost_nonneg : forall ctx l f, (forall k, 0 <= ctx k) -> 0 <= close_all_cost ctx l f.
Proof.
  induction l as [|[x k] l IH]; cbn; intros f H; [lia|].
  specialize (IH (upd f k (mkSes (s_owner (f k)) (s_sid (f k)) true)) H).
  destruct (s_closed (f k)); [lia|]. specialize (H k). lia.
Qed.

Section NonNeg.
Variable c : cfg.
Hypothesis Hctx : forall k, 0 <= close_tx c k.

Lemma tstep_NInv : forall s t ch s', NInv s -> tstep c s t ch = Some s' -> NInv s'.
Proof.
  intros s t ch s' [nv nq nt] H. destruct (tstep_data _ _ _ _ _ H) as (p'&d&D&E&ET&_).
  destruct E as (_&_&Er&_&_&Eq&_).
  pose proof (nt t) as NT. remember (thr s t) as p eqn:Hpc in *.
  assert (G : (forall r, nonneg (r_valve (recs d r))) /\ (forall u v, In (u, v) (queue d) -> nonneg v)
              /\ thr_nonneg p').
  { assert (U : forall r0 x r, nonneg (r_valve x) -> nonneg (r_valve (upd (recs s) r0 x r)))
      by (intros r0 x r Hx; unfold upd; destruct (Nat.eqb r r0); auto).
    assert (A : forall add z, 0 <= z -> add = pzero \/ add = (0, z) -> nonneg add)
      by (intros add z Hz [->| ->]; [apply nonneg_pzero | split; cbn; lia]).
    clear - D nv nq NT Hctx U A. unfold thr_nonneg in *.
    destruct D; sim; rewrite ?inflight_seq_pc; cbn [inflight] in *; (split; [|split]); auto.
    all: try solve [intros r1; apply U; cbn; eauto using nonneg_pzero, nonneg_padd, close_all_cost_nonneg].
    all: try solve [apply qadd_nonneg; auto].
    - now rewrite Hfl.
    - destruct (nullify_all_nonneg (nrec s) (table s) (recs s) (queue s) nv nq) as [N1 _]. now rewrite Hnull in N1.
    - destruct (nullify_all_nonneg (nrec s) (table s) (recs s) (queue s) nv nq) as [_ N2]. now rewrite Hnull in N2.
    - now destruct cm.
    - intros ? ? [].
    - subst p'. destruct st; [exact I|]. cbn [inflight]. rewrite <- Hst. intros u v Hin. apply filter_In in Hin. destruct Hin. eauto.
    - now destruct rs.
    - now rewrite Hfl. }
  destruct G as (G1&G2&G3). constructor; rewrite ?Er, ?Eq, ?ET; auto.
  intros t0. unfold upd. destruct (Nat.eqb t0 t); auto.
Qed.

Lemma step_NInv : forall s l s', NInv s -> step c s l = Some s' -> NInv s'.
Proof.
  intros s l s' HN H. destruct (step_cases _ _ _ _ H) as [(t&ch&_&_&Ht)|E]; [eapply tstep_NInv; eauto|].
  destruct HN as [nv nq nt]. destruct E as [o p E|k v _ _ H1 H2 _| | |]; cbv zeta; constructor; sim; auto.
  - intros t. unfold upd, thr_nonneg. destruct (Nat.eqb t (nthr s)); [|apply nt].
    now rewrite (start_pc_inflight _ _ _ E).
  - intros r. unfold upd. destruct (Nat.eqb r _); cbn; auto. apply nonneg_padd; [apply nv | split; assumption].
Qed.

Lemma reachable_NInv : forall d nw s, reachable c d nw s -> NInv s.
Proof.
  intros d nw s [ls H]. eapply (run_inv NInv); eauto using step_NInv.
  constructor; cbn; intros; try contradiction; auto using nonneg_pzero.
Qed.

Lemma sumz_nonneg : forall n f, (forall i, 0 <= f i) -> 0 <= sumz n f.
Proof. induction n as [|n IH]; cbn; intros f H; [lia|]. specialize (IH f H). specialize (H n). lia. Qed.
Lemma qsum_nonneg : forall u q, (forall x w, In (x, w) q -> nonneg w) -> nonneg (qsum u q).
Proof.
  induction q as [|[y z] q IH]; cbn; intros H; [apply nonneg_pzero|].
  destruct (N.eqb u y); [apply nonneg_padd|]; eauto.
Qed.

(* never more than once: what has been reported (charged to an existing bucket, or reported for a
   deleted user) never exceeds what the user's valves counted *)
Theorem at_most_once : forall d nw s b u, reachable c d nw s ->
  dsel b (g_chg s u) + dsel b (g_nou s u) <= dsel b (g_cnt s u).
Proof.
  intros d nw s b u HR. pose proof (conservation c d nw s b u HR) as C.
  apply reachable_NInv in HR. destruct HR as [nv nq nt].
  assert (0 <= dsel b (qsum u (queue s))) by (apply nonneg_dsel, qsum_nonneg; eauto).
  assert (0 <= vsum b s u).
  { apply sumz_nonneg. intros i. unfold vterm. destruct (N.eqb _ _); [apply nonneg_dsel, nv | lia]. }
  assert (0 <= lsum b s u /\ 0 <= isum b s u).
  { split; apply sumz_nonneg; intros i; specialize (nt i); unfold thr_nonneg in nt;
      rewrite ?lterm_inflight, ?iterm_inflight; destruct (inflight (thr s i)) as [[[r v]|st]|]; try lia.
    - destruct (N.eqb _ _); [now apply nonneg_dsel | lia].
    - now apply nonneg_dsel, qsum_nonneg. }
  lia.
Qed.

Lemma upload_mono : forall b u nw st d chg nou,
  (forall x w, In (x, w) st -> nonneg w) ->
  let '(_, _, chg', nou') := upload nw d chg nou st in
  dsel b (chg u) <= dsel b (chg' u) /\ dsel b (nou u) <= dsel b (nou' u).
Proof.
  induction st as [|[x us] st IH]; intros d chg nou H; cbn; [lia|].
  assert (Hus : 0 <= dsel b us) by (apply nonneg_dsel; eapply H; left; reflexivity).
  assert (H' : forall x w, In (x, w) st -> nonneg w) by (intros; eapply H; right; eauto).
  destruct (d x) as [r|].
  - specialize (IH (updN d x (Some (mkDb (d_cap r) (wrap64 (fst (d_credit r) - fst us), wrap64 (snd (d_credit r) - snd us)) (d_exp r))))
                   (updN chg x (padd (chg x) us)) nou H').
    destruct (upload _ _ _ _ st) as [[[d' rs] chg'] nou']. destruct IH as [I1 I2]. split; auto.
    unfold updN in I1. destruct (N.eqb_spec u x) as [->|]; [rewrite dsel_padd in I1|]; lia.
  - specialize (IH d chg (updN nou x (padd (nou x) us)) H').
    destruct (upload _ _ _ _ st) as [[[d' rs] chg'] nou']. destruct IH as [I1 I2]. split; auto.
    unfold updN in I2. destruct (N.eqb_spec u x) as [->|]; [rewrite dsel_padd in I2|]; lia.
Qed.

(* the two ghost ledgers of UploadStatus never go below zero *)
Definition GInv (s : state) : Prop := forall b u, 0 <= dsel b (g_chg s u) /\ 0 <= dsel b (g_nou s u).

Lemma step_GInv : forall s l s', NInv s -> GInv s -> step c s l = Some s' -> GInv s'.
Proof.
  intros s l s' HN HG H. destruct (step_cases _ _ _ _ H) as [(t&ch&_&_&Ht)|E]; [|destruct E; exact HG].
  pose proof (n_thr _ HN t) as NT. destruct (tstep_data _ _ _ _ _ Ht) as (p'&d&D&E&_).
  destruct E as (_&_&_&_&_&_&_&_&_&_&Echg&Enou&_).
  unfold GInv. rewrite Echg, Enou. remember (thr s t) as p in *. destruct D; sim; try exact HG.
  intros b u. pose proof (upload_mono b u (now s) st (db s) (g_chg s) (g_nou s) NT) as U.
  rewrite Hup in U. destruct (HG b u). lia.
Qed.

Lemma reachable_GInv : forall d nw s, reachable c d nw s -> GInv s.
Proof.
  intros d nw s [ls H].
  assert (G : NInv s /\ GInv s).
  { eapply (run_inv (fun s => NInv s /\ GInv s)); eauto.
    - intros s0 l s1 [HN HG] Hs. split; [eapply step_NInv; eauto | eapply step_GInv; eauto].
    - split; [constructor; cbn; intros; try contradiction; auto using nonneg_pzero|].
      intros b u. cbn. rewrite dsel_pzero. lia. }
  tauto.
Qed.

(* never from another user: a user whose sessions carried nothing is never charged, whatever the
   other users do *)
Theorem per_user : forall d nw s b u, reachable c d nw s ->
  dsel b (g_cnt s u) = 0 -> dsel b (g_chg s u) = 0 /\ dsel b (g_nou s u) = 0.
Proof.
  intros d nw s b u HR Hc. pose proof (at_most_once d nw s b u HR) as A.
  destruct (reachable_GInv d nw s HR b u). lia.
Qed.
End NonNeg.
