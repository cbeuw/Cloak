(* The delivery invariant LV of a healthy session: while the reader's end of a stream is open, every
   frame the writer has emitted has reached the reader's re-sequencer or is still on the wire.
   Hence C01 "nothing is lost" (an open reader with nothing in flight has been handed every byte
   written) and the other half of C03: once the writer has closed the stream and no frame of that
   direction is in flight any more, the reader's end IS closed (unless the reader closed it itself):
   the end-of-stream is delivered.  With MuxExact: it then holds exactly the bytes written. *)
From Coq Require Import NArith ZArith List Bool Lia Sorting.Permutation.
From Coq Require Import ZifyN ZifyBool.
From Cloak Require Import Model.Reorder Model.Mux Proofs.Reorder Proofs.ReorderExt Proofs.MuxSafety
  Proofs.MuxView Proofs.MuxEffect Proofs.MuxPay Proofs.MuxData Proofs.MuxCalm Proofs.MuxCount
  Proofs.MuxUp Proofs.MuxCov Proofs.MuxComplete Proofs.MuxExact.
Import ListNotations.
Local Open Scope N_scope.

Section Live.
Variable s : side.
Variable sid : N.
Variable k : nat.
Notation inflight := (inflight s sid).
Notation sview := (sview s sid).
Notation rview := (rview s sid).
Notation keep := (keep sid).
Notation PD := (PD s sid).
Notation wfE := (wfE sid).
Notation ev_frames := (ev_frames s sid).
Notation rclosed := (rclosed s sid).

Notation rbuf0 := (rbuf0 s sid).

(* re-sequencer rb holds exactly the set A of the frames of E that have arrived, and every frame of E
   has arrived or is among the frames IF on the wire *)
Definition covers (rb : rbuf) (IF E : list wframe) (Rd : list N) : Prop :=
  exists A, Inv (FE E) (cl_of E) 0 A rb Rd /\ (forall i, In i A -> i < nE E) /\
            (forall fr, In fr IF -> ~ In (w_seq fr) A) /\
            (forall i, i < nE E -> In i A \/ onwire IF i).

Lemma covers_perm rb IF IF' E Rd : Permutation IF IF' -> covers rb IF E Rd -> covers rb IF' E Rd.
Proof.
  intros Hp (A & HI & HA & Hd & Hc). exists A. split; [exact HI|split; [exact HA|split]].
  - intros fr Hin. apply Hd. eapply Permutation_in; [symmetry; exact Hp|exact Hin].
  - intros i Hi. destruct (Hc i Hi) as [H|H]; [left; exact H|right; eapply onwire_perm; eauto].
Qed.

(* a frame numbered nE E is put on the wire *)
Lemma covers_emit rb IF E Rd fr :
  covers rb IF E Rd -> w_seq fr = nE E -> cl_of E = two64 -> covers rb (fr :: IF) (E ++ [fr]) Rd.
Proof.
  intros (A & HI & HA & Hd & Hc) Hseq Hc2. exists A. split.
  { eapply Inv_ext; [exact HI|exact HA|intros i Hi; apply FE_app; exact Hi|].
    rewrite cl_of_app, Hc2. destruct (w_cl fr =? 0); [left; reflexivity|right; lia]. }
  split; [intros i Hi; rewrite nE_app; specialize (HA _ Hi); lia|]. split.
  - intros f [<-|Hin]; [|apply Hd; exact Hin]. rewrite Hseq. intros Hx. specialize (HA _ Hx). lia.
  - intros i Hi. rewrite nE_app in Hi. destruct (N.eq_dec i (nE E)) as [->|Hne].
    + right. exists fr. split; [now left|exact Hseq].
    + destruct (Hc i) as [H|(f & Hf & Hsf)]; [lia|left; exact H|right]. exists f. split; [now right|exact Hsf].
Qed.

Lemma covers_read rb IF E Rd n d rb' :
  rb_read rb n = (rb', RdData d) -> covers rb IF E Rd -> covers rb' IF E (Rd ++ d).
Proof.
  intros Hrd (A & HI & H). exists A. split; [|exact H].
  pose proof (read_pres (FE E) (cl_of E) 0 A rb Rd n HI) as Hrp. now rewrite Hrd in Hrp.
Qed.

(* a frame that was on the wire is taken by the re-sequencer, which does not report toBeClosed *)
Lemma covers_arrive rb IF IF' E Rd fr rb' er :
  covers rb IF E Rd -> Permutation IF (fr :: IF') -> wfE E -> nE E + 1 < two64 ->
  genuine E IF -> NoDup (map w_seq IF) -> rb_write rb (to_frame fr) = (rb', false, er) ->
  covers rb' IF' E Rd.
Proof.
  intros (A & HI & HA & Hd & Hc) Hp Hw Hb Hg Hnd Hwr.
  assert (Hfr : In fr IF) by (eapply Permutation_in; [symmetry; exact Hp|now left]).
  pose proof (Hg _ Hfr) as Hgf. pose proof (nthf_lt _ _ _ Hgf) as Hlt.
  destruct (arrive_pres sid E A rb Rd fr Hw Hb Hgf HI HA (Hd _ Hfr)) as (st2 & c' & Hwr' & HcF & _).
  rewrite Hwr in Hwr'. injection Hwr' as <- <- _.
  exists (w_seq fr :: A). split; [exact (HcF eq_refl)|]. split; [intros i [<-|Hi]; [exact Hlt|apply HA; exact Hi]|].
  assert (Hnd' : NoDup (map w_seq (fr :: IF'))) by (eapply nodup_perm; [exact Hp|exact Hnd]).
  split.
  - (* sequence numbers of frames in flight are distinct *)
    intros f Hf [Heq|HinA].
    + inversion Hnd' as [|? ? Hnotin _]; subst. apply Hnotin. rewrite Heq. apply in_map. exact Hf.
    + apply (Hd f); [eapply Permutation_in; [symmetry; exact Hp|now right]|exact HinA].
  - intros i Hi. destruct (Hc i Hi) as [Hx|(f & Hf & Hsf)]; [left; now right|].
    apply (Permutation_in _ Hp) in Hf. destruct Hf as [<-|Hf]; [left; left; exact Hsf|].
    right. exists f. split; [exact Hf|exact Hsf].
Qed.

(* nothing on the wire: every frame has been handed over, none of them was a closing frame, and what
   was read plus what waits in the pipe is everything that was sent *)
Lemma covers_drained rb E Rd :
  covers rb [] E Rd -> nE E + 2 < two64 -> cl_of E = two64 /\ Rd ++ pipe rb = flat_map w_pay E.
Proof.
  intros (A & HI & HA & _ & Hc) Hb.
  assert (Hall : forall i, i < nE E -> In i A).
  { intros i Hi. destruct (Hc i Hi) as [H|(f & [] & _)]. exact H. }
  pose proof HI as (kk & Hnx & Hpc & Hso & Ho & Hncl & HAiff).
  assert (Hnext : next rb = nE E).
  { destruct (N.lt_trichotomy (next rb) (nE E)) as [Hlt|[Heq|Hgt]]; [exfalso|exact Heq|exfalso].
    - destruct (proj1 (HAiff _) (Hall _ Hlt)) as [Hx|(g & Hg1 & Hg2)]; [lia|].
      pose proof (sorted_above_in _ _ _ _ Hso Hg1). lia.
    - assert (Hin : In (nE E) A) by (apply HAiff; left; lia). specialize (HA _ Hin). lia. }
  split.
  - destruct (cl_of_cases E) as [Hx|[Hc2 Hpos]]; [exact Hx|]. exfalso. apply (Hncl (cl_of E)); [lia|reflexivity].
  - rewrite Ho, cat_FE by (unfold nE in *; lia). replace kk with (length E) by (unfold nE in *; lia). now rewrite firstn_all.
Qed.

(* the delivery invariant: while the reader's end is open, the buffer the next frame will be written
   into (the reader's, or a fresh one if the stream object does not exist yet) covers the frames sent *)
Definition LV (y : sys) (E : list wframe) (Rd : list N) : Prop :=
  ~ rclosed y -> covers (rbuf0 y) (inflight y) E Rd.

Lemma rclosed_step b y a y' : vstep s sid b y a y' -> rclosed y -> rclosed y'.
Proof.
  intros Hv Hc. destruct (rclosed_dec s sid y') as [H|H]; [exact H|exfalso].
  apply ron_rclosed in H. apply (ron_back s sid _ _ _ _ Hv), ron_rclosed in H. contradiction.
Qed.
Lemma rclosed_steps b y acts y' : vsteps s sid b y acts y' -> rclosed y -> rclosed y'.
Proof. induction 1; [auto|]. intros Hc. apply IHvsteps. eapply rclosed_step; eauto. Qed.

Lemma LV_closed y E Rd : rclosed y -> LV y E Rd.
Proof. intros H Hn. contradiction. Qed.

(* a reader's end that may only have been closed, and is not: same buffer *)
Lemma rclose_rbuf0 y y' : rclose (rview y) (rview y') -> ~ rclosed y' -> rbuf0 y' = rbuf0 y.
Proof.
  intros [Heq|(rb & _ & Hb)] Hn; [unfold MuxExact.rbuf0; now rewrite Heq|]. exfalso. apply Hn. eexists. exact Hb.
Qed.

Lemma LV_step y a y' E Rd :
  vstep s sid false y a y' -> (forall fr, a <> AArrive fr) -> PD y E Rd [] -> LV y E Rd ->
  LV y' (E ++ emitted [a]) (Rd ++ readout [a]).
Proof.
  intros Hv Hna (Hw & Hs & Hn & Hg & Hnd & Hr) Hlv Hnc'.
  assert (Hcv : covers (rbuf0 y) (inflight y) E Rd).
  { apply Hlv. intros Hc. apply Hnc'. eapply rclosed_step; eauto. }
  clear Hlv.
  destruct Hv as [y y' (Hp & Hsc & Hrc')
                 |y y' q w pay Hs1 Hs2 Hp Hr2
                 |y y' q w Hs1 Hs2 Hp Hrc'
                 |y y' q w w' Hs1 Hs2 Hp Hrc'
                 |y y' l Hbt Hp Hs2 Hr2
                 |y y' fr rb c Hr1 Hr2 Hi2 Hs2
                 |y y' rb c kk d rb' Hr1 Hrd Hr2 Hi2 Hs2
                 |y y' Hs1 Hs2 Hi2 Hr2
                 |y y' Hr1 Hr2 Hi2 Hs2]; cbn [emitted readout flat_map app]; rewrite ?app_nil_r.
  - rewrite (rclose_rbuf0 _ _ Hrc' Hnc'). eapply covers_perm; eauto.
  - destruct (Hs _ _ Hs1) as (-> & -> & Had). unfold MuxExact.rbuf0. rewrite Hr2.
    eapply covers_perm; [symmetry; exact Hp|]. apply covers_emit; [exact Hcv|reflexivity|now apply all_data_cl_of].
  - destruct (Hs _ _ Hs1) as (-> & _ & Had). rewrite (rclose_rbuf0 _ _ Hrc' Hnc').
    eapply covers_perm; [symmetry; exact Hp|]. apply covers_emit; [exact Hcv|reflexivity|now apply all_data_cl_of].
  - rewrite (rclose_rbuf0 _ _ Hrc' Hnc'). eapply covers_perm; eauto.
  - discriminate Hbt.
  - exfalso. eapply Hna. reflexivity.
  - unfold MuxExact.rbuf0 in *. rewrite Hr2, Hi2. rewrite Hr1 in Hcv. eapply covers_read; eauto.
  - unfold MuxExact.rbuf0 in *. now rewrite Hr2, Hi2.
  - (* the stream object that appears holds the fresh buffer *)
    unfold MuxExact.rbuf0 in *. rewrite Hr2, Hi2. now rewrite Hr1 in Hcv.
Qed.

Lemma LV_same_view y y' E Rd : inflight y' = inflight y -> rview y' = rview y -> LV y E Rd -> LV y' E Rd.
Proof. unfold LV, MuxExact.rclosed, MuxExact.rbuf0. intros -> ->. exact (fun H => H). Qed.

(* LV as an invariant of the view: no frame is being processed *)
Definition LVj (y : sys) (E : list wframe) (Rd : list N) (P : list wframe) : Prop :=
  P = [] /\ PD y E Rd [] /\ LV y E Rd.
Lemma LVj_step y a y' E Rd P P' :
  vstep s sid false y a y' -> LVj y E Rd P -> fits (E ++ emitted [a]) -> takes a P P' ->
  LVj y' (E ++ emitted [a]) (Rd ++ readout [a]) P'.
Proof.
  intros Hv (-> & Hpd & Hlv) Hb HP.
  assert (Hna : forall fr, a <> AArrive fr).
  { intros fr ->. cbn in HP. apply Permutation_nil_cons in HP. exact HP. }
  assert (HP' : P' = []) by (destruct a; try exact HP; exfalso; eapply Hna; reflexivity). subst P'.
  split; [reflexivity|split; [|eapply LV_step; eauto]].
  eapply PD_step; eauto.
Qed.
Lemma LVj_view y y' E Rd P :
  inflight y' = inflight y -> sview y' = sview y -> rview y' = rview y -> LVj y E Rd P -> LVj y' E Rd P.
Proof.
  intros Hi Hs Hr (HP & Hpd & Hlv). split; [exact HP|split; [eapply PD_same_view; eauto|eapply LV_same_view; eauto]].
Qed.

Lemma LV_label y l ch y' evs E Rd :
  step y l ch = (y', evs) -> busy_at y l -> valid_picks k ch -> Healthy k y -> WF y -> CIs y ->
  PD y E Rd [] -> LV y E Rd -> fresh_at y l ->
  nE (E ++ ev_frames evs) + 2 < two64 ->
  LV y' (E ++ ev_frames evs) (Rd ++ step_reads s sid l evs).
Proof.
  intros H Hbusy Hvp Hh Hwf Hci Hpd Hlv Hfresh Hb.
  destruct (step_split s sid _ _ _ _ _ H) as (yc & ec & yr & ps & er & Ec & Er & -> & HE & HR).
  rewrite HE, HR, !app_assoc. rewrite HE, app_assoc in Hb. pose proof (fits_prefix _ _ Hb) as Hb1.
  pose proof (PD_core s sid _ _ _ _ _ _ _ Ec Hwf Hpd Hfresh Hb1) as Hpdc.
  (* enough: the invariant after the core part *)
  enough (Hc : LV yc (E ++ ev_frames ec) (Rd ++ core_reads s sid l ec)).
  { exact (proj2 (proj2 (inv_resolve s sid false LVj fits fits_prefix LVj_step LVj_view yc _ _ _ _ _ Er
                           (conj eq_refl (conj Hpdc Hc)) Hb1))). }
  destruct (step_core_effect s sid _ _ _ _ _ Ec Hwf Hfresh (fun q w => PD_wcl s sid _ _ _ _ q w Hpd))
    as [Hd|(c & cn & fr & q & ar & -> & En & Eq & Hk & Hd & Harr)].
  { (* no frame of this direction is handed to the reader's session *)
    unfold plain_effect in Hd. rewrite (busy_not_droppy _ _ Hbusy) in Hd.
    exact (proj2 (proj2 (inv_steps s sid false LVj fits fits_prefix LVj_step _ _ _ _ _ Hd E Rd []
                           (conj eq_refl (conj Hpd Hlv)) Hb1))). }
  destruct (pop_view s sid y _ cn fr q En Eq Hk) as (Hdq & Hs1 & Hr1).
  destruct (rclosed_dec s sid y) as [(rb & Hc)|Hnc].
  { apply LV_closed. destruct Hd as (acts & Hv & _). apply (rclosed_steps _ _ _ _ Hv). exists rb. congruence. }
  assert (Hsid : w_sid fr = sid) by (unfold MuxView.keep in Hk; apply andb_prop in Hk as [Hk' _]; lia).
  pose proof (deliver_own s sid k y c cn fr q ch yc ec Ec En Eq Hsid Hvp Hh Hwf Hci Hnc) as Hown.
  destruct (rb_write (rbuf0 y) (to_frame fr)) as [[rb' tbc] er'] eqn:Ewr. destruct Hown as (_ & Hrvc & Hq).
  destruct tbc; [apply LV_closed; eexists; exact Hrvc|].
  (* nothing emitted or read in the core part; the frame was in flight; the re-sequencer takes it *)
  destruct (Hq eq_refl) as [Hev Hif2]. rewrite Hev. cbn [core_reads]. rewrite !app_nil_r.
  destruct Hpd as (Hw & Hs & Hn & Hg & Hnd & Hro). rewrite app_nil_r in Hg, Hnd.
  assert (Hbb : nE E + 1 < two64) by (pose proof (fits_prefix _ _ Hb1); unfold fits in *; lia).
  intros _. unfold MuxExact.rbuf0 at 1. rewrite Hrvc, Hif2.
  exact (covers_arrive _ _ _ _ _ _ _ _ (Hlv Hnc) Hdq Hw Hbb Hg Hnd Ewr).
Qed.

Lemma LV_run ls y y' os E Rd :
  run y ls = (y', os) -> sound k y -> PD y E Rd [] -> LV y E Rd -> busy_fresh k y ls ->
  nE (E ++ run_frames s sid os) + 2 < two64 ->
  PD y' (E ++ run_frames s sid os) (Rd ++ run_reads s sid ls os) [] /\
  LV y' (E ++ run_frames s sid os) (Rd ++ run_reads s sid ls os).
Proof.
  intros H Hs Hpd Hlv HR Hb.
  apply (inv_run s sid (fun y E Rd => sound k y /\ PD y E Rd [] /\ LV y E Rd) fits (busy_fresh k) fits_prefix
           (busy_fresh_next k)) with (ls := ls) (y := y); auto.
  intros y0 l ch t y1 evs E0 Rd0 HR0 Hst (Hs0 & Hpd0 & Hlv0) Hb0.
  pose proof HR0 as [[Hf _] (Hbusy & Hv & _)]. pose proof Hs0 as (Hwf & Hci & Hh).
  split; [eapply sound_step; eauto|split; [eapply PD_label; eauto|eapply LV_label; eauto]].
Qed.

(* once the writer has closed and nothing is in flight, the reader's end is closed *)
Lemma LV_delivered y E Rd :
  LV y E Rd -> cl_of E <> two64 -> inflight y = [] -> nE E + 2 < two64 -> rclosed y.
Proof.
  intros Hlv Hcl Hif Hb. destruct (rclosed_dec s sid y) as [Hc|Hnc]; [exact Hc|exfalso].
  specialize (Hlv Hnc). rewrite Hif in Hlv. now destruct (covers_drained _ _ _ Hlv Hb).
Qed.
End Live.

Lemma LV_init s sid k sp u ta tb : LV s sid (init k sp u ta tb) [] [].
Proof.
  intros _. exists []. split; [|split; [intros i []|split; [intros fr _ []|intros i Hi; cbn in Hi; lia]]].
  replace (rbuf0 s sid (init k sp u ta tb)) with (rb_init 0); [apply Inv_init|].
  unfold rbuf0, MuxView.rview. destruct s; reflexivity.
Qed.

Lemma reach_LV s sid k unit toA toB ls :
  (1 <= k)%nat -> 1 <= unit ->
  fresh_run (init k false unit toA toB) ls -> busy_run k (init k false unit toA toB) ls ->
  let os := outputs k false unit toA toB ls in
  let y := reach k false unit toA toB ls in
  nE (run_frames s sid os) + 2 < two64 ->
  PD s sid y (run_frames s sid os) (run_reads s sid ls os) [] /\ LV s sid y (run_frames s sid os) (run_reads s sid ls os).
Proof.
  intros Hk Hu Hf Hbusy os y Hb. unfold os, y, outputs, reach in *.
  destruct (run (init k false unit toA toB) ls) as [y' os'] eqn:Er. cbn [fst snd] in *.
  exact (LV_run s sid k ls _ _ _ [] [] Er (init_sound k unit toA toB Hk Hu) (PD_init s sid _ _ _ _ _)
           (LV_init s sid _ _ _ _ _) (conj Hf Hbusy) Hb).
Qed.

(* C01: nothing is lost *)
Theorem nothing_lost s sid k unit toA toB ls :
  (1 <= k)%nat -> 1 <= unit ->
  fresh_run (init k false unit toA toB) ls -> busy_run k (init k false unit toA toB) ls ->
  let os := outputs k false unit toA toB ls in
  let y := reach k false unit toA toB ls in
  nE (run_frames s sid os) + 2 < two64 -> all_data (run_frames s sid os) ->
  inflight s sid y = [] -> ron (rview s sid y) ->
  run_written s sid ls os =
  run_reads s sid ls os ++ match rview s sid y with Some (rb, _) => pipe rb | None => [] end.
Proof.
  intros Hk Hu Hf Hbusy os y Hb _ Hif Hron. subst os y.
  destruct (reach_LV s sid k unit toA toB ls Hk Hu Hf Hbusy Hb) as [_ Hlv].
  rewrite <- (reach_payload k false unit toA toB s sid ls Hf Hb).
  apply ron_rclosed in Hron. rename Hron into Hnc.
  specialize (Hlv Hnc). rewrite Hif in Hlv. destruct (covers_drained sid _ _ _ Hlv Hb) as [_ Hx].
  rewrite <- Hx. unfold rbuf0. destruct (rview s sid _) as [[rb c]|]; reflexivity.
Qed.

(* C03: the end-of-stream is delivered *)
Theorem close_is_delivered s sid k unit toA toB ls :
  (1 <= k)%nat -> 1 <= unit ->
  fresh_run (init k false unit toA toB) ls -> busy_run k (init k false unit toA toB) ls ->
  no_local_close s sid ls ->
  let os := outputs k false unit toA toB ls in
  let y := reach k false unit toA toB ls in
  nE (run_frames s sid os) + 2 < two64 ->
  cl_of (run_frames s sid os) <> two64 -> inflight s sid y = [] ->
  exists rb, rview s sid y = Some (rb, true) /\ run_written s sid ls os = run_reads s sid ls os ++ pipe rb.
Proof.
  intros Hk Hu Hf Hbusy Hnl os y Hb Hcl Hif.
  destruct (reach_LV s sid k unit toA toB ls Hk Hu Hf Hbusy Hb) as [_ Hlv].
  destruct (LV_delivered s sid _ _ _ Hlv Hcl Hif Hb) as (rb & Hrv). exists rb. split; [exact Hrv|].
  destruct (close_is_exact s sid k unit toA toB ls rb Hk Hu Hf Hbusy Hnl Hb Hrv) as [_ Hx]. exact Hx.
Qed.
