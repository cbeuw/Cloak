(* The building blocks of Model/Mux.v report only wire events (frames put on the wire,
   connection ends closed); results of application calls (ERet, EPend) are produced by the
   label dispatcher and by resolve only.  The walk over the blocks is done once, for wire
   events whose frames satisfy a predicate Q that holds of every frame without payload:
   only Stream.Write sends anything else. *)
From Coq Require Import NArith ZArith List Bool Lia.
From Cloak Require Import Model.Reorder Model.Mux Proofs.MuxBase.
Import ListNotations.
Local Open Scope N_scope.

Definition wire_ev (e : ev) : Prop := match e with EFrame _ _ _ | EConnClosed _ _ => True | _ => False end.
Definition wire_only (evs : list ev) : Prop := Forall wire_ev evs.

Lemma wire_nil : wire_only []. Proof. constructor. Qed.

Section Wire.
Variable Q : wframe -> Prop.
Hypothesis Q_nopay : forall fr, w_pay fr = [] -> Q fr.

Definition wire_with (e : ev) : Prop :=
  match e with EFrame _ _ fr => Q fr | EConnClosed _ _ => True | _ => False end.
Definition wires (evs : list ev) : Prop := Forall wire_with evs.

Lemma wires_app a b : wires a -> wires b -> wires (a ++ b).
Proof. intros; apply Forall_app; auto. Qed.

Lemma close_ends_wire x pool : forall cs, wires (snd (close_ends x pool cs)).
Proof.
  induction pool as [|c t IH]; intros cs; cbn; [constructor|].
  destruct (nthN _ cs) as [cn|]; [|apply IH]. destruct (conn_closed_end cn x); [apply IH|].
  specialize (IH (setN (N.to_nat c) (conn_close_end cn x) cs)).
  destruct (close_ends x t _) as [cs' evs]. cbn in *. constructor; [exact I|exact IH].
Qed.
Lemma close_all_wire y x y' evs : close_all y x = (y', evs) -> wires evs.
Proof.
  unfold close_all. intros H. destruct (se_broken _); [injection H as _ <-; constructor|].
  pose proof (close_ends_wire x (se_pool (sess y x)) (sy_conns y)) as Hw.
  destruct (close_ends _ _ _) as [cs e]. injection H as _ <-. exact Hw.
Qed.
Lemma passive_close_wire y x y' evs : passive_close y x = (y', evs) -> wires evs.
Proof.
  unfold passive_close. intros H. destruct (close_session_core _) as [se ok].
  destruct ok; [eapply close_all_wire; eauto|injection H as _ <-; constructor].
Qed.
Lemma sb_send_wire y x fr p y' evs rc : sb_send y x fr p = (y', evs, rc) -> Q fr -> wires evs.
Proof.
  intros H HQ. destruct (sb_send_cases _ _ _ _ _ _ _ H) as [(_ & _ & ->)|[[Epc _]|(cn & _ & _ & -> & _)]];
    [constructor|eapply passive_close_wire; eauto|repeat constructor; exact HQ].
Qed.
Lemma stream_emit_wire y x sid pay ch y' ch' evs ok :
  stream_emit y x sid pay ch = (y', ch', evs, ok) -> (forall q w, Q (mkW sid q w pay)) -> wires evs.
Proof.
  intros H HQ. pose proof (stream_emit_cases _ _ _ _ _ _ _ _ _ H) as Hc.
  destruct (lookup sid (se_objs (sess y x))) as [st|]; [|destruct Hc as (_ & -> & _); constructor].
  destruct Hc as [(_ & -> & _)|(_ & Epc)]; [repeat constructor; apply HQ|eapply passive_close_wire; eauto].
Qed.
Lemma session_close_wire y x ch y' ch' evs rc : session_close y x ch = (y', ch', evs, rc) -> wires evs.
Proof.
  intros H. destruct (session_close_steps _ _ _ _ _ _ _ H) as [(_ & _ & ->)|(se & y2 & e2 & rc2 & e3 & _ & Es & Eca & ->)];
    [constructor|].
  apply wires_app; [eapply sb_send_wire; [exact Es|now apply Q_nopay]|eapply close_all_wire; eauto].
Qed.
Lemma close_stream_wire y x sid active ch y' ch' evs rc :
  close_stream y x sid active ch = (y', ch', evs, rc) -> wires evs.
Proof.
  intros H. destruct (close_stream_cases _ _ _ _ _ _ _ _ _ H) as [(_ & -> & _)|(st & y2 & ch2 & evs2 & ok & _ & _ & Ee & Ht)];
    [constructor|]. cbv zeta in Ee, Ht.
  assert (H2 : wires evs2).
  { destruct active; [eapply stream_emit_wire; [exact Ee|intros; now apply Q_nopay]|injection Ee as _ _ <- _; constructor]. }
  destruct Ht as [(_ & _ & ->)|(_ & [[_ ->]|(ch4 & evs4 & rc4 & _ & Esc & ->)])]; try exact H2.
  apply wires_app; [exact H2|eapply session_close_wire; eauto].
Qed.
Lemma deliver_wire y x fr ch y' ch' evs : deliver y x fr ch = (y', ch', evs) -> wires evs.
Proof.
  unfold deliver. intros H. destruct (lookup _ _) as [st|]; [|injection H as _ _ <-; constructor].
  destruct (rb_write _ _) as [[rb' tbc] er]. cbv zeta in H. destruct tbc; [|injection H as _ _ <-; constructor].
  destruct (close_stream _ x (w_sid fr) false ch) as [[[y2 ch2] evs2] rc] eqn:Ecs. injection H as _ _ <-.
  eapply close_stream_wire; eauto.
Qed.
Lemma recv_frame_wire y x fr ch y' ch' evs : recv_frame y x fr ch = (y', ch', evs) -> wires evs.
Proof.
  rewrite recv_frame_eq. intros H. destruct (w_cl fr =? 2).
  { destruct (passive_close y x) as [y1 e1] eqn:Epc. injection H as _ _ <-. eapply passive_close_wire; eauto. }
  destruct (se_closed _); [injection H as _ _ <-; constructor|].
  destruct (lookup (w_sid fr) (se_tab (sess y x))) as [[|]|];
    [eapply deliver_wire; eauto|injection H as _ _ <-; constructor|eapply deliver_wire; eauto].
Qed.
Lemma deplex_error_wire y x c y' evs : deplex_error y x c = (y', evs) -> wires evs.
Proof.
  unfold deplex_error. intros H. destruct (passive_close y x) as [y1 e1] eqn:Epc. apply passive_close_wire in Epc.
  destruct (nthN _ _) as [cn|]; [|injection H as _ <-; exact Epc].
  destruct (conn_closed_end cn x); injection H as _ <-; [exact Epc|]. apply wires_app; [exact Epc|repeat constructor].
Qed.
Lemma write_loop_wire fuel y x sid data n ch y' ch' evs n' rc :
  write_loop fuel y x sid data n ch = (y', ch', evs, n', rc) -> (forall fr, Q fr) -> wires evs.
Proof.
  intros H HQ. revert H. apply (write_loop_ind (fun _ e _ => wires e));
    [constructor|intros; now apply wires_app|intros; eapply stream_emit_wire; eauto].
Qed.
Lemma fire_timers_wire fuel y x ch y' ch' evs : fire_timers fuel y x ch = (y', ch', evs) -> wires evs.
Proof.
  apply (fire_timers_ind (fun _ e _ => wires e));
    [constructor|intros; now apply wires_app|constructor|intros; eapply session_close_wire; eauto].
Qed.

(* one label before resolve: wire events of the blocks it runs, then the result of its own call *)
Lemma step_core_shape y l ch y' evs :
  step_core y l ch = (y', evs) -> (forall x sid data, l = LWrite x sid data -> forall fr, Q fr) ->
  exists evs0 rc n d, evs = evs0 ++ [ERet rc n d] /\ wires evs0.
Proof.
  intros H HQ.
  assert (Hblk : forall evs0 rc n d, wires evs0 ->
            exists e rc0 n0 d0, evs0 ++ [ERet rc n d] = e ++ [ERet rc0 n0 d0] /\ wires e).
  { intros e rc n d Hw. exists e, rc, n, d. auto. }
  assert (Hret : forall rc n d, exists e rc0 n0 d0, [ERet rc n d] = e ++ [ERet rc0 n0 d0] /\ wires e).
  { intros. apply (Hblk []). constructor. }
  destruct l as [x|x sid data|x sid k|x|x sid|x|x c|c|dt|c|x c].
  - rewrite step_core_open in H. unfold open_stream in H. destruct (se_closed _); [injection H as _ <-; apply Hret|].
    cbv zeta in H. destruct (_ && _); injection H as _ <-; apply Hret.
  - rewrite step_core_write in H. unfold stream_write in H.
    destruct (lookup _ _) as [st|]; [|injection H as _ <-; apply Hret].
    destruct (st_closed st); [injection H as _ <-; apply Hret|].
    destruct (write_loop _ _ _ _ _ _ _) as [[[[y1 ch1] e1] n] rc] eqn:Ew. injection H as _ <-.
    apply Hblk. eapply write_loop_wire; [exact Ew|eapply HQ; reflexivity].
  - rewrite step_core_read in H. destruct (has_pending_read _ _ _); [injection H as _ <-; apply Hret|].
    destruct (try_read _ _ _ _) as [[[y1 rc] dd]|]; injection H as _ <-; apply Hret.
  - rewrite step_core_accept in H. destruct (se_closed _); [injection H as _ <-; apply Hret|].
    destruct (try_accept _ _) as [[[y1 rc] id]|]; [injection H as _ <-; apply Hret|].
    destruct (has_pending_accept _ _); injection H as _ <-; apply Hret.
  - rewrite step_core_close_stream in H. destruct (close_stream _ _ _ _ _) as [[[y1 ch1] e1] rc] eqn:Ec.
    injection H as _ <-. apply Hblk. eapply close_stream_wire; eauto.
  - rewrite step_core_close_session in H. destruct (session_close _ _ _) as [[[y1 ch1] e1] rc] eqn:Ec.
    injection H as _ <-. apply Hblk. eapply session_close_wire; eauto.
  - rewrite step_core_deliver in H. destruct (nthN _ _) as [cn|]; [|injection H as _ <-; apply Hret].
    destruct (_ || _); [injection H as _ <-; apply Hret|]. destruct (conn_q cn x) as [|fr q].
    + destruct (conn_closed_end cn (other x)); [|injection H as _ <-; apply Hret].
      destruct (deplex_error y x c) as [y1 e1] eqn:Ed. injection H as _ <-. apply Hblk. eapply deplex_error_wire; eauto.
    + destruct (recv_frame _ x fr ch) as [[y2 ch2] e2] eqn:Er. injection H as _ <-.
      apply Hblk. eapply recv_frame_wire; eauto.
  - rewrite step_core_fail in H. destruct (nthN _ _) as [cn|]; [|injection H as _ <-; apply Hret]. cbv zeta in H.
    set (y0 := set_conns y _) in H.
    destruct (if conn_closed_end cn SA || c_failed cn then (y0, []) else deplex_error y0 SA c) as [ya ea] eqn:Ea.
    assert (Ha : wires ea) by (destruct (_ || _) in Ea; [injection Ea as _ <-; constructor|eapply deplex_error_wire; eauto]).
    destruct (if conn_closed_end cn SB || c_failed cn then (ya, []) else deplex_error ya SB c) as [yb eb] eqn:Eb.
    assert (Hb : wires eb) by (destruct (_ || _) in Eb; [injection Eb as _ <-; constructor|eapply deplex_error_wire; eauto]).
    injection H as _ <-. rewrite app_assoc. apply Hblk, wires_app; assumption.
  - rewrite step_core_tick in H.
    destruct (fire_timers 64 _ SA ch) as [[ya cha] ea] eqn:Ea. destruct (fire_timers 64 ya SB cha) as [[yb chb] eb] eqn:Eb.
    injection H as _ <-. rewrite app_assoc.
    apply Hblk, wires_app; eapply fire_timers_wire; eauto.
  - rewrite step_core_break in H. destruct (nthN _ _) as [cn|]; injection H as _ <-; apply Hret.
  - rewrite step_core_notice in H. destruct (nthN _ _) as [cn|]; [|injection H as _ <-; apply Hret].
    destruct (_ && _); [|injection H as _ <-; apply Hret].
    destruct (deplex_error y x c) as [y1 e1] eqn:Ed. injection H as _ <-. apply Hblk. eapply deplex_error_wire; eauto.
Qed.
End Wire.

Lemma wire_only_wires evs : wire_only evs = wires (fun _ => True) evs.
Proof. reflexivity. Qed.
