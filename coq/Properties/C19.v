(* C19 - a limited user's throughput never exceeds the configured rates.
   Only the property theorems, each closed by a line or two from a lemma of Proofs/Bucket.v, the
   concrete runs by evaluation.
   Model: Model/Bucket.v (juju/ratelimit's take / adjustavailableTokens / currentTick with its
   integer tick arithmetic, Wait = ideal sleep of the returned duration, NewBucketWithRate's
   quantum search, MakeValve: capacity = rate).  A request (t, c) is a call Wait(c) at time t (ns
   since the bucket was made); it is released at t + wait.  *)
From Coq Require Import ZArith List.
From Cloak Require Import Gen.Consts Model.Bucket Proofs.Bucket.
From Cloak Require Model.PanelSplit Proofs.PanelSplit.
Import ListNotations.
Local Open Scope Z_scope.

(* EVERY request sequence with non-decreasing request times and positive sizes <= m, EVERY
   interval [s,e]: the bytes released in it are at most one quantum per tick touched by the
   interval plus the larger of the bucket capacity and the largest request.
   (Sharper: max (capacity + q*(ticks-1)) (m + q*ticks - 1); this is the form of DESIGN section 6.) *)
Theorem C19_bound : forall p reqs s e m, wf p -> 0 <= s <= e ->
  sorted_from 0 reqs -> counts_in m reqs ->
  released s e (run p (binit p) reqs)
  <= quantum p * (e / fillInterval p - s / fillInterval p + 1) + Z.max (capacity p) m.
Proof. exact bound. Qed.
Print Assumptions C19_bound.

(* In rate terms, for the buckets MakeValve builds (capacity = rate = one second's worth; fill rate
   within 1 % of rate) and messages of at most one second's worth: in any interval of length t ns
   at most 1.01 * rate * t / 1e9 + rate + 2 * quantum bytes are released: the
   property's upper bound under the premise "every message <= one second's worth". *)
Theorem C19_partial : forall rate p reqs s e, wf p -> 0 < rate ->
  capacity p = rate -> within_1pct rate p ->
  0 <= s <= e -> sorted_from 0 reqs -> counts_in rate reqs ->
  100 * 1000000000 * released s e (run p (binit p) reqs)
  <= 101 * rate * (e - s) + 100 * 1000000000 * (rate + 2 * quantum p).
Proof. exact bound_rate. Qed.
Print Assumptions C19_partial.

(* the premises are met by what NewBucketWithRate returns (the model of its search; the driver
   checks on every run that the library returns the same quantum / fillInterval) *)
Theorem C19_search_within_1pct : forall rate cap p, 0 < rate -> 0 < cap ->
  new_bucket_with_rate rate cap = Some p -> wf p /\ capacity p = cap /\ within_1pct rate p.
Proof. exact (fun rate cap p _ => new_bucket_ok rate cap p). Qed.
Print Assumptions C19_search_within_1pct.

Example C19_bound_inhabited :
  new_bucket_with_rate 1000 1000 = Some p1000 /\ wf p1000 /\ within_1pct 1000 p1000 /\
  sorted_from 0 [(0, 600); (0, 600); (5, 1000)] /\ counts_in 1000 [(0, 600); (0, 600); (5, 1000)] /\
  run p1000 (binit p1000) [(0, 600); (0, 600); (5, 1000)] = [(0, 600); (200000000, 600); (1200000000, 1000)].
Proof. exact bound_inhabited. Qed.

(* The literal property - "rate x t plus one second's worth, within 1 %" for ALL message sizes: *)
Definition C19_full : Prop :=
  forall rate p reqs s e, wf p -> 0 < rate -> capacity p = rate -> within_1pct rate p ->
  0 <= s <= e -> sorted_from 0 reqs -> Forall (fun tc => 0 < snd tc) reqs ->
  100 * 1000000000 * released s e (run p (binit p) reqs)
  <= 101 * rate * (e - s) + 100 * 1000000000 * (rate + 2 * quantum p).

(* F14: it is FALSE when the rate is below the message size.  At 1000 B/s (quantum 1, fill interval
   1 ms, capacity 1000) one maximal frame of 16401 bytes waits 15.401 s and is then released whole:
   16401 bytes in an interval of length 0, against 1000 + 2. *)
Theorem C19_refuted_small_rate :
  run p1000 (binit p1000) [(0, server_appDataMaxLength)] = [(15401000000, 16401)] /\
  released 15401000000 15401000000 (run p1000 (binit p1000) [(0, server_appDataMaxLength)]) = 16401.
Proof. exact small_rate_burst. Qed.
Print Assumptions C19_refuted_small_rate.

Theorem C19_refuted : ~ C19_full.
Proof. exact full_refuted. Qed.
Print Assumptions C19_refuted.

(* ---- "take the tokens, sleep until they are there" for ANY wait --------------------------------
   C19_bound and C19_partial above quantify over all request sequences: [run] is [take] with
   maxWait = None (the library's infinityDuration), so the wait a request is given is computed from the
   debt alone and nothing in the model bounds it.  The following theorems say so explicitly.

   EVERY request sequence (non-decreasing request times, positive sizes of ANY magnitude): the request
   that completes the first K requested bytes is released at a time r >= 0 whose tick r/fillInterval
   satisfies K <= capacity + quantum * tick: it is never released before the bucket has been refilled
   for everything requested up to and including itself, however long that takes. *)
Theorem C19_never_released_early : forall p reqs, wf p -> sorted_from 0 reqs ->
  Forall (fun tc => 0 < snd tc) reqs ->
  Forall (fun rK => snd rK <= capacity p + quantum p * (fst rK / fillInterval p))
         (cumulate 0 (run p (binit p) reqs)).
Proof.
  intros p reqs Hwf Hs Hpos. eapply Forall_impl; [|exact (never_early p reqs Hwf Hs Hpos)].
  intros rK H. exact (proj2 H).
Qed.
Print Assumptions C19_never_released_early.

(* in rate terms, for MakeValve's buckets: that request is released no earlier than
   (K - rate) / (1.01 * rate) seconds after the valve was made *)
Theorem C19_never_released_early_rate : forall rate p reqs, wf p -> 0 < rate -> capacity p = rate ->
  within_1pct rate p -> sorted_from 0 reqs -> Forall (fun tc => 0 < snd tc) reqs ->
  Forall (fun rK => 0 <= fst rK /\ 100 * 1000000000 * (snd rK - rate) <= 101 * rate * fst rK)
         (cumulate 0 (run p (binit p) reqs)).
Proof. exact never_early_rate. Qed.
Print Assumptions C19_never_released_early_rate.

(* k requests of n bytes all issued at time 0 - k senders blocked on the user's bucket at once (streams,
   connections, sessions: one bucket), or one sender's queue: the i-th of them (from 0), with
   K = (i+1)*n bytes requested up to and including itself, is released at r with
   (K - capacity) * fillInterval <= quantum * r, i.e. no earlier than (K - capacity) / fill rate *)
Theorem C19_backlog_wait : forall p n k i r K, wf p -> 0 < n ->
  nth_error (cumulate 0 (run p (binit p) (repeat (0, n) k))) i = Some (r, K) ->
  K = (Z.of_nat i + 1) * n /\ 0 <= r /\ (K - capacity p) * fillInterval p <= quantum p * r.
Proof. exact backlog_wait. Qed.
Print Assumptions C19_backlog_wait.

(* the wait the model imposes has no upper limit: whatever W, a long enough backlog contains a request
   (it exists) that is released later than W *)
Theorem C19_wait_unbounded : forall p n W, wf p -> 0 < n ->
  exists k r K, nth_error (cumulate 0 (run p (binit p) (repeat (0, n) (S k)))) k = Some (r, K) /\ W < r.
Proof. exact wait_unbounded. Qed.
Print Assumptions C19_wait_unbounded.

(* non-vacuity: at 1000 B/s two maximal frames wait 15.4 s and 31.8 s, one request of 3 601 000 bytes
   waits exactly one hour, the sixth of six 8000-byte messages pending at once waits 47 s *)
Example C19_never_released_early_inhabited :
  cumulate 0 (run p1000 (binit p1000) [(0, 16401); (0, 16401)]) = [(15401000000, 16401); (31802000000, 32802)] /\
  cumulate 0 (run p1000 (binit p1000) [(0, 3601000)]) = [(3600000000000, 3601000)] /\
  nth_error (cumulate 0 (run p1000 (binit p1000) (repeat (0, 8000) 6))) 5 = Some (47000000000, 48000).
Proof. repeat split; vm_compute; reflexivity. Qed.

(* counted from the moment the valve is made, the LITERAL bound of the property holds for all message
   sizes (no term for the largest message: F14 needs an interval that begins later): everything released
   in [0, e] is covered by the initial content and the refill *)
Theorem C19_bound_from_start : forall p reqs e, wf p -> 0 <= e -> sorted_from 0 reqs ->
  Forall (fun tc => 0 < snd tc) reqs ->
  released 0 e (run p (binit p) reqs) <= capacity p + quantum p * (e / fillInterval p).
Proof. exact from_start. Qed.
Print Assumptions C19_bound_from_start.

Theorem C19_partial_from_start : forall rate p reqs e, wf p -> 0 < rate -> capacity p = rate ->
  within_1pct rate p -> 0 <= e -> sorted_from 0 reqs -> Forall (fun tc => 0 < snd tc) reqs ->
  100 * 1000000000 * released 0 e (run p (binit p) reqs) <= 101 * rate * e + 100 * 1000000000 * rate.
Proof. exact from_start_rate. Qed.
Print Assumptions C19_partial_from_start.

(* The valve must call Wait.  With the limited variant the library also offers - WaitMaxDuration(n, 30 s),
   result ignored (Model: run_capped) - a request whose wait would exceed the
   limit takes no token and goes out at once: two 16030-byte messages at 500 B/s are released after
   31.06 s and 63.12 s by Wait, both at time 0 by the capped wait: 32060 bytes in an interval of length
   0, against 16031 (C19_bound with the largest message) and 500 (C19_bound_from_start). *)
Theorem C19_refuted_capped_wait :
  run p500 (binit p500) [(0, 16030); (0, 16030)] = [(31060000000, 16030); (63120000000, 16030)] /\
  run_capped p500 (binit p500) 30000000000 [(0, 16030); (0, 16030)] = [(0, 16030); (0, 16030)] /\
  released 0 0 (run_capped p500 (binit p500) 30000000000 [(0, 16030); (0, 16030)]) = 32060 /\
  quantum p500 * (0 / fillInterval p500 - 0 / fillInterval p500 + 1) + Z.max (capacity p500) 16030 = 16031 /\
  capacity p500 + quantum p500 * (0 / fillInterval p500) = 500.
Proof. repeat split; vm_compute; reflexivity. Qed.
Print Assumptions C19_refuted_capped_wait.

(* all sessions of one active user draw from ONE bucket: GetSession hands the user's valve to every
   session it creates (whatever the sequence of GetSession calls) ... *)
Theorem C19_shared_valve : forall sids u,
  Forall (fun sv => snd sv = u_valve u) (u_sessions u) ->
  let u' := fold_left (fun u sid => fst (get_session u sid)) sids u in
  u_valve u' = u_valve u /\ Forall (fun sv => snd sv = u_valve u) (u_sessions u') /\
  forall sid, snd (get_session u' sid) = u_valve u.
Proof. exact get_session_shared. Qed.
(* ... so the bound holds for what all sessions together release *)
Theorem C19_shared : forall p (reqs : list (nat * Z * Z)) s e m, wf p -> 0 <= s <= e ->
  sorted_from 0 (map untag reqs) -> counts_in m (map untag reqs) ->
  released s e (map untag (run_tagged p (binit p) reqs))
  <= quantum p * (e / fillInterval p - s / fillInterval p + 1) + Z.max (capacity p) m.
Proof. intros. rewrite run_tagged_untag. now apply bound. Qed.
Print Assumptions C19_shared.
(* with one bucket per session instead, two sessions release 2000 bytes at once at rate 1000 (bound: 1001) *)
Theorem C19_refuted_unshared :
  released 0 0 (run p1000 (binit p1000) [(0, 1000)] ++ run p1000 (binit p1000) [(0, 1000)]) = 2000 /\
  quantum p1000 * (0 / fillInterval p1000 - 0 / fillInterval p1000 + 1) + Z.max (capacity p1000) 1000 = 1001.
Proof. split; vm_compute; reflexivity. Qed.

(* "a backlogged sender is not held below that rate" - MODEL ONLY (ideal sleeps; real timers
   oversleep): a sender that issues each Wait the moment the previous one returns has the message
   completing its first K bytes released at time 0 or before (K - capacity + quantum)/quantum fill
   intervals, i.e. earlier than (K - rate + quantum) / (0.99 rate) seconds *)
Theorem C19_not_starved_partial : forall rate p cs, wf p -> 0 < rate -> capacity p = rate -> quantum p <= rate ->
  within_1pct rate p -> Forall (fun c => 0 < c) cs ->
  Forall (fun rK => fst rK = 0 \/ 99 * rate * fst rK < 100 * 1000000000 * (snd rK - rate + quantum p))
         (cumulate 0 (run_seq p (binit p) 0 cs)).
Proof. exact not_starved_rate. Qed.
Print Assumptions C19_not_starved_partial.

Example C19_not_starved_inhabited :
  cumulate 0 (run_seq p1000 (binit p1000) 0 [600; 600; 1000]) = [(0, 600); (200000000, 1200); (1200000000, 2200)].
Proof. vm_compute. reflexivity. Qed.

(* "counted across all of the user's sessions and connections together" needs ONE valve per user even
   when the user's first connections overlap: GetUser creates the valve together with the record, and
   with activeUsersM kept from the lookup to the insertion (Model/PanelSplit.v, held = true; tied to
   the source by the generated obligation GetUser_lookup_authenticate_insert_one_step) any number of
   overlapping calls, whatever the user database answers and when, all get the one record - g_nrec
   counts the records, i.e. the valves, created. *)
Theorem C19_one_valve_per_user_under_overlap : forall thr sched s t1 t2 u r1 r2,
  PanelSplit.all_start thr -> PanelSplit.grun true (PanelSplit.g_init thr) sched = Some s ->
  PanelSplit.gget s t1 = PanelSplit.GDone u (Some r1) -> PanelSplit.gget s t2 = PanelSplit.GDone u (Some r2) ->
  r1 = r2 /\ PanelSplit.g_table s u = Some r1.
Proof. exact PanelSplit.split_one_record. Qed.
Print Assumptions C19_one_valve_per_user_under_overlap.

(* without that lock two overlapping first connections get two records = two valves
   (PanelSplit with held = false), and C19_refuted_unshared above says what two valves release *)
Theorem C19_two_valves_when_unlocked :
  exists s, PanelSplit.grun false (PanelSplit.g_init [PanelSplit.GStart 1%N; PanelSplit.GStart 1%N]) PanelSplit.unlocked_schedule = Some s
  /\ PanelSplit.gget s 0 = PanelSplit.GDone 1%N (Some 0%nat) /\ PanelSplit.gget s 1 = PanelSplit.GDone 1%N (Some 1%nat)
  /\ PanelSplit.g_nrec s = 2%nat.
Proof. exact PanelSplit.split_unlocked_two_valves. Qed.
Print Assumptions C19_two_valves_when_unlocked.
