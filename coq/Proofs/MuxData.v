(* The data invariant of one direction of one stream of the session-pair model, for EVERY
   label sequence: what the reader has read, plus what is waiting in its pipe, is the
   concatenation of the first k data frames the sender emitted; frames are numbered 0,1,2,..
   in emission order.  (C01, C03, C12 prefix part, C13) *)
From Coq Require Import NArith ZArith List Bool Lia Sorting.Permutation.
From Coq Require Import ZifyN ZifyBool.
From Cloak Require Import Model.Reorder Model.Mux Proofs.Reorder Proofs.ReorderExt
  Proofs.MuxBase Proofs.MuxSafety Proofs.MuxView Proofs.MuxEffect Proofs.MuxPay.
Import ListNotations.
Local Open Scope N_scope.

Section Data.
Variable s : side.
Variable sid : N.

Notation inflight := (inflight s sid).
Notation sview := (sview s sid).
Notation rview := (rview s sid).
Notation keep := (keep sid).
Notation vstep := (vstep s sid).

Definition nthf (E : list wframe) (i : N) : option wframe := nth_error E (N.to_nat i).
Definition nE (E : list wframe) : N := N.of_nat (length E).

Definition wfE (E : list wframe) : Prop :=
  forall i fr, nth_error E i = Some fr ->
    w_seq fr = N.of_nat i /\ w_sid fr = sid /\ (w_cl fr = 0 \/ (w_cl fr = 1 /\ S i = length E /\ w_pay fr = [])).

Definition all_data (E : list wframe) : Prop := forall fr, In fr E -> w_cl fr = 0.

(* index of the closing frame, if the sender has emitted one (it is then the last frame); two64, which
   no frame is numbered with (fewer than 2^64-2 frames are emitted), stands for "none" *)
Definition cl_of (E : list wframe) : N :=
  match rev E with
  | fr :: _ => if w_cl fr =? 0 then two64 else nE E - 1
  | [] => two64
  end.
(* number of data frames *)
Definition ndata (E : list wframe) : N := if cl_of E =? two64 then nE E else nE E - 1.

(* the frames of the stream as Proofs/Reorder.v wants them, a total function: frame i as emitted, and
   beyond the frames emitted so far an empty frame that closes iff i is the closing index *)
Definition FE (E : list wframe) (i : N) : frame :=
  match nthf E i with Some fr => to_frame fr | None => mkF i (i =? cl_of E) [] end.

Lemma nthf_lt E i fr : nthf E i = Some fr -> i < nE E.
Proof. unfold nthf, nE. intros H. assert (N.to_nat i < length E)%nat by (apply nth_error_Some; congruence). lia. Qed.
Lemma nthf_app1 E fr i : i < nE E -> nthf (E ++ [fr]) i = nthf E i.
Proof. unfold nthf, nE. intros H. apply nth_error_app1. lia. Qed.
Lemma nthf_app2 E fr : nthf (E ++ [fr]) (nE E) = Some fr.
Proof. unfold nthf, nE. rewrite nth_error_app2; rewrite Nat2N.id; [|lia]. now rewrite Nat.sub_diag. Qed.
Lemma nE_app E fr : nE (E ++ [fr]) = nE E + 1.
Proof. unfold nE. rewrite app_length. cbn. lia. Qed.

Lemma cl_of_app E fr : cl_of (E ++ [fr]) = if w_cl fr =? 0 then two64 else nE E.
Proof. unfold cl_of. rewrite rev_app_distr. cbn. rewrite nE_app. destruct (w_cl fr =? 0); [reflexivity|lia]. Qed.

Lemma all_data_cl_of E : all_data E -> cl_of E = two64.
Proof.
  induction E as [|fr E0 _] using rev_ind; [reflexivity|]. intros H.
  rewrite cl_of_app, (H fr); [reflexivity|]. apply in_or_app. right. now left.
Qed.

(* the closing frame, if there is one, is the last frame *)
Lemma cl_of_last E :
  cl_of E = two64 \/ exists E0 fr, E = E0 ++ [fr] /\ w_cl fr <> 0 /\ cl_of E = nE E0.
Proof.
  induction E as [|fr E0 _] using rev_ind; [now left|]. rewrite cl_of_app.
  destruct (w_cl fr =? 0) eqn:E0'; [now left|right]. exists E0, fr. repeat split. lia.
Qed.

Lemma cl_of_cases E : cl_of E = two64 \/ (cl_of E = nE E - 1 /\ 0 < nE E).
Proof.
  destruct (cl_of_last E) as [H|(E0 & fr & -> & _ & H)]; [now left|right]. rewrite nE_app in *. lia.
Qed.

Lemma FE_seq E : wfE E -> forall i, seq (FE E i) = i.
Proof.
  intros Hw i. unfold FE. destruct (nthf E i) as [fr|] eqn:En; [|reflexivity].
  unfold nthf in En. destruct (Hw _ _ En) as (H1 & _). cbn. rewrite H1. lia.
Qed.

Lemma FE_closing E : wfE E -> nE E + 1 < two64 -> forall i, closing (FE E i) = (i =? cl_of E).
Proof.
  intros Hw Hb i. unfold FE. destruct (nthf E i) as [fr|] eqn:En; [|reflexivity].
  pose proof (nthf_lt _ _ _ En) as Hlt. destruct (Hw _ _ En) as (_ & _ & H3). cbn.
  induction E as [|lst E0 _] using rev_ind; [cbn in Hlt; lia|].
  rewrite cl_of_app. rewrite nE_app in Hlt, Hb.
  destruct (N.eq_dec i (nE E0)) as [->|Hne].
  - rewrite nthf_app2 in En. injection En as <-. destruct (w_cl lst =? 0); cbn; lia.
  - (* an earlier frame carries data *)
    destruct H3 as [->|(_ & Hlast & _)]; [|rewrite app_length in Hlast; cbn in Hlast; unfold nE in *; lia].
    cbn. destruct (w_cl lst =? 0); lia.
Qed.

Lemma FE_app E fr i : i < nE E -> FE (E ++ [fr]) i = FE E i.
Proof.
  intros H. unfold FE. rewrite nthf_app1 by exact H.
  destruct (nthf E i) as [f|] eqn:En; [reflexivity|].
  unfold nthf in En. apply nth_error_None in En. unfold nE in H. lia.
Qed.

Definition genuine (E l : list wframe) : Prop := forall fr, In fr l -> nthf E (w_seq fr) = Some fr.

(* The receiver's half against the frames E emitted, the frames IF still on the wire or being processed and
   the bytes Rd read: no object yet (RNone); open, its re-sequencer satisfying Inv for the set A of frames
   that have arrived, none of which is among IF (ROpen); the re-sequencer has just reported toBeClosed and
   the object is not marked closed yet, a state that exists only between two actions of one delivery
   (RTrans); closed, holding a prefix of the data (RClosed). *)
Inductive recv_ok (E IF : list wframe) (Rd : list N) : option (rbuf * bool) -> Prop :=
| RNone : Rd = [] -> recv_ok E IF Rd None
| ROpen rb A :
    pclosed rb = false -> Inv (FE E) (cl_of E) 0 A rb Rd -> (forall i, In i A -> i < nE E) ->
    (forall fr, In fr IF -> ~ In (w_seq fr) A) -> recv_ok E IF Rd (Some (rb, false))
| RTrans rb :
    pclosed rb = false -> cl_of E <> two64 -> Rd ++ pipe rb = cat (FE E) 0 (N.to_nat (ndata E)) -> IF = [] ->
    recv_ok E IF Rd (Some (rb, false))
| RClosed rb k :
    pclosed rb = true -> N.of_nat k <= ndata E -> Rd ++ pipe rb = cat (FE E) 0 k ->
    recv_ok E IF Rd (Some (rb, true)).

(* P = frames of this direction taken off the wire and not yet processed (non-empty only inside a delivery) *)
Definition PD (y : sys) (E : list wframe) (Rd : list N) (P : list wframe) : Prop :=
  wfE E /\
  (forall q w, sview y = Some (q, w, false) -> q = nE E /\ w = 0 /\ all_data E) /\
  (sview y = None -> E = []) /\
  genuine E (inflight y ++ P) /\ NoDup (map w_seq (inflight y ++ P)) /\
  recv_ok E (inflight y ++ P) Rd (rview y).

Lemma recv_ok_IF E IF IF' Rd rv :
  recv_ok E IF Rd rv -> (forall fr, In fr IF' -> In fr IF) -> recv_ok E IF' Rd rv.
Proof.
  intros H Hsub. destruct H.
  - now constructor.
  - eapply ROpen; eauto.
  - eapply RTrans; eauto. subst IF. destruct IF' as [|x t]; [reflexivity|]. exfalso. apply (Hsub x). now left.
  - eapply RClosed; eauto.
Qed.

Lemma Inv_next_bound E A rb Rd :
  Inv (FE E) (cl_of E) 0 A rb Rd -> (forall i, In i A -> i < nE E) -> nE E + 1 < two64 ->
  exists k, Rd ++ pipe rb = cat (FE E) 0 k /\ N.of_nat k <= ndata E.
Proof.
  intros (k & Hn & Hpc & Hs & Ho & Hncl & HA) HAn Hb. exists k. split; [exact Ho|].
  assert (Hk : N.of_nat k <= nE E).
  { destruct k as [|k]; [lia|]. assert (In (next rb - 1) A) by (apply HA; left; lia). specialize (HAn _ H). lia. }
  unfold ndata. destruct (cl_of E =? two64) eqn:Ec; [exact Hk|].
  assert (Hcl : cl_of E = nE E - 1) by (destruct (cl_of_cases E) as [?|[? _]]; [lia|assumption]).
  destruct (N.ltb_spec (cl_of E) (next rb)) as [Hlt|Hge]; [|lia].
  exfalso. apply (Hncl (cl_of E)); [lia|reflexivity].
Qed.

Lemma recv_ok_rclose E IF Rd rv rv' :
  recv_ok E IF Rd rv -> rclose rv rv' -> nE E + 1 < two64 -> recv_ok E IF Rd rv'.
Proof.
  intros H [->|(rb & -> & ->)] Hb; [exact H|].
  remember (Some (rb, false)) as rv eqn:Erv.
  destruct H as [Hr|rb0 A Hp HI HA Hd|rb0 Hp Hc Ho Hi|rb0 k Hp Hk Ho]; try discriminate.
  - injection Erv as ->.
    destruct (Inv_next_bound _ _ _ _ HI HA Hb) as (k & Hk1 & Hk2).
    eapply (RClosed _ _ _ (rb_close rb) k); [reflexivity|exact Hk2|exact Hk1].
  - injection Erv as ->.
    eapply (RClosed _ _ _ (rb_close rb) (N.to_nat (ndata E))); [reflexivity|lia|exact Ho].
Qed.

(* the open sender puts one more frame, data or closing, on the wire *)
Lemma recv_ok_emit E IF Rd rv fr :
  recv_ok E IF Rd rv -> all_data E -> w_seq fr = nE E -> nE E + 2 < two64 ->
  recv_ok (E ++ [fr]) (fr :: IF) Rd rv.
Proof.
  intros H Had Hseq Hb.
  assert (Hc : cl_of E = two64) by (apply all_data_cl_of; exact Had).
  assert (Hc' : cl_of (E ++ [fr]) = two64 \/ cl_of (E ++ [fr]) = nE E) by (rewrite cl_of_app; destruct (w_cl fr =? 0); auto).
  assert (Hnd : ndata E <= ndata (E ++ [fr])).
  { unfold ndata. rewrite Hc, N.eqb_refl, nE_app.
    destruct Hc' as [Hx|Hx]; rewrite Hx; [rewrite N.eqb_refl|replace (nE E =? two64) with false by lia]; lia. }
  assert (Hnd0 : ndata E = nE E) by (unfold ndata; now rewrite Hc, N.eqb_refl).
  destruct H.
  - now constructor.
  - eapply (ROpen _ _ _ rb A); [assumption| | |].
    + eapply Inv_ext; [exact H0|exact H1|intros i Hi; apply FE_app; exact Hi|].
      destruct Hc' as [Hx|Hx]; [left; congruence|right; lia].
    + intros i Hi. rewrite nE_app. specialize (H1 _ Hi). lia.
    + intros f [<-|Hin]; [|apply H2; exact Hin]. rewrite Hseq. intros Hx. specialize (H1 _ Hx). lia.
  - congruence.
  - eapply (RClosed _ _ _ rb k); [assumption|lia|].
    rewrite H1. symmetry. apply cat_ext. intros i Hi. apply FE_app. lia.
Qed.

Lemma to_frame_genuine E fr : nthf E (w_seq fr) = Some fr -> to_frame fr = FE E (w_seq fr).
Proof. intros H. unfold FE. now rewrite H. Qed.

(* write_pres for the frames of E: a genuine frame that has not arrived yet is written into an open
   re-sequencer; if that reports toBeClosed, everything up to the closing frame has arrived and all
   the data has been handed over *)
Lemma arrive_pres E A rb Rd fr :
  wfE E -> nE E + 1 < two64 -> nthf E (w_seq fr) = Some fr ->
  Inv (FE E) (cl_of E) 0 A rb Rd -> (forall i, In i A -> i < nE E) -> ~ In (w_seq fr) A ->
  exists rb' c, rb_write rb (to_frame fr) = (rb', c, false) /\
    (c = false -> Inv (FE E) (cl_of E) 0 (w_seq fr :: A) rb' Rd) /\
    (c = true -> (forall j, j <= cl_of E -> In j (w_seq fr :: A)) /\ cl_of E <> two64 /\
                 Rd ++ pipe rb' = cat (FE E) 0 (N.to_nat (ndata E))).
Proof.
  intros Hw Hb Hg HI HA Hni. pose proof (nthf_lt _ _ _ Hg) as Hlt. rewrite (to_frame_genuine _ _ Hg).
  destruct (write_pres (FE E) (cl_of E) (FE_seq E Hw) (FE_closing E Hw Hb) 0 A rb Rd (w_seq fr) HI Hni)
    as (rb' & c & Hwr & HcF & HcT); [lia|lia|].
  exists rb', c. split; [exact Hwr|split; [exact HcF|]]. intros Hc. destruct (HcT Hc) as (Hall & k & Hk & Hout).
  assert (Hclin : In (cl_of E) (w_seq fr :: A)) by (apply Hall; lia).
  assert (Hcllt : cl_of E < nE E) by (destruct Hclin as [<-|Hx]; [exact Hlt|apply HA; exact Hx]).
  split; [intros j Hj; apply Hall; lia|split; [lia|]].
  rewrite Hout. f_equal. unfold ndata. replace (cl_of E =? two64) with false by lia.
  destruct (cl_of_cases E) as [Hc2|[Hc2 Hpos]]; lia.
Qed.

(* a frame that was in flight is handed to the receiver's re-sequencer *)
Lemma recv_ok_arrive E IF IF' Rd rb c fr :
  recv_ok E IF Rd (Some (rb, c)) -> Permutation IF (fr :: IF') ->
  genuine E IF -> NoDup (map w_seq IF) -> wfE E -> nE E + 1 < two64 ->
  recv_ok E IF' Rd (Some (fst (fst (rb_write rb (to_frame fr))), c)).
Proof.
  intros H Hperm Hgen Hnd Hw Hb.
  assert (Hfr : In fr IF) by (eapply Permutation_in; [symmetry; exact Hperm|now left]).
  assert (Hsub : forall f, In f IF' -> In f IF) by (intros f Hf; eapply Permutation_in; [symmetry; exact Hperm|now right]).
  assert (Hnd' : NoDup (w_seq fr :: map w_seq IF')).
  { eapply Permutation_NoDup; [|exact Hnd]. change (w_seq fr :: map w_seq IF') with (map w_seq (fr :: IF')). now apply Permutation_map. }
  pose proof (Hgen _ Hfr) as Hg. pose proof (nthf_lt _ _ _ Hg) as Hlt.
  pose proof (rb_write_pclosed rb (to_frame fr)) as Hpc.
  remember (Some (rb, c)) as rv eqn:Erv.
  destruct H as [Hr|rb0 A Hp HI HA Hd|rb0 Hp Hc Ho Hi|rb0 k Hp Hk Ho]; try discriminate; injection Erv as -> <-.
  - destruct (arrive_pres E A rb Rd fr Hw Hb Hg HI HA (Hd _ Hfr)) as (st' & c' & Hwr & HcF & HcT).
    rewrite Hwr in *. cbn [fst] in *.
    destruct c'.
    + destruct (HcT eq_refl) as (Hall & Hcl & Hout).
      eapply RTrans; [congruence|exact Hcl|exact Hout|].
      * destruct IF' as [|f t]; [reflexivity|]. exfalso.
        assert (Hf : In f IF) by (apply Hsub; now left).
        pose proof (nthf_lt _ _ _ (Hgen _ Hf)) as Hflt.
        assert (Hin : In (w_seq f) (w_seq fr :: A)) by (apply Hall; destruct (cl_of_cases E); lia).
        destruct Hin as [Heq|HinA].
        -- inversion Hnd' as [|? ? Hnotin _]; subst. apply Hnotin. cbn. left. congruence.
        -- apply (Hd _ Hf). exact HinA.
    + eapply (ROpen _ _ _ st' (w_seq fr :: A)); [congruence|apply HcF; reflexivity| |].
      * intros i [<-|Hi]; [exact Hlt|apply HA; exact Hi].
      * intros f Hf [Heq|HinA].
        -- inversion Hnd' as [|? ? Hnotin _]; subst. apply Hnotin. rewrite Heq. apply in_map. exact Hf.
        -- apply (Hd _ (Hsub _ Hf)). exact HinA.
  - subst IF. destruct Hfr.
  - pose proof (rb_write_closed_pipe rb (to_frame fr) Hp) as Hpipe.
    eapply (RClosed _ _ _ _ k); [congruence|exact Hk|congruence].
Qed.

Lemma recv_ok_read E IF Rd rb c k d rb' :
  recv_ok E IF Rd (Some (rb, c)) -> rb_read rb k = (rb', RdData d) ->
  recv_ok E IF (Rd ++ d) (Some (rb', c)).
Proof.
  intros H Hr.
  destruct (rb_read_data _ _ _ _ Hr) as [Hpc Hpipe].
  remember (Some (rb, c)) as rv eqn:Erv.
  destruct H as [Hr0|rb0 A Hp HI HA Hd|rb0 Hp Hc Ho Hi|rb0 k0 Hp Hk Ho]; try discriminate; injection Erv as -> <-.
  - pose proof (read_pres (FE E) (cl_of E) 0 A rb Rd k HI) as Hrp. rewrite Hr in Hrp.
    eapply (ROpen _ _ _ rb' A); [congruence|exact Hrp|exact HA|exact Hd].
  - eapply RTrans; [congruence|exact Hc| |exact Hi]. rewrite <- app_assoc, <- Hpipe. exact Ho.
  - eapply (RClosed _ _ _ rb' k0); [congruence|exact Hk|]. rewrite <- app_assoc, <- Hpipe. exact Ho.
Qed.

Lemma recv_ok_create E IF Rd : recv_ok E IF Rd None -> recv_ok E IF Rd (Some (rb_init 0, false)).
Proof.
  intros H. inversion H as [Hr| | |]; subst.
  eapply (ROpen _ _ _ (rb_init 0) []); [reflexivity| | |].
  - apply Inv_init.
  - intros i [].
  - intros fr _ [].
Qed.

Lemma nodup_perm l l' : Permutation l l' -> NoDup (map w_seq l) -> NoDup (map w_seq l').
Proof. intros Hp. apply Permutation_NoDup. now apply Permutation_map. Qed.

Lemma nodup_app_r {A} (a b : list A) : NoDup (a ++ b) -> NoDup b.
Proof. induction a as [|x t IH]; cbn; [auto|]. intros H. inversion H; auto. Qed.

Lemma nodup_app_l {A} (a b : list A) : NoDup (a ++ b) -> NoDup a.
Proof. induction a as [|x t IH]; cbn; [constructor|]. intros H. inversion H as [|? ? Hn Ht]; subst. constructor; [|apply IH; exact Ht]. intros Hx. apply Hn. apply in_or_app. now left. Qed.

Lemma wfE_app E fr : wfE E -> all_data E -> w_seq fr = nE E -> w_sid fr = sid -> (w_cl fr = 0 \/ (w_cl fr = 1 /\ w_pay fr = [])) ->
  wfE (E ++ [fr]).
Proof.
  intros Hw Had Hseq Hsid Hcl i f Hn.
  destruct (Nat.lt_ge_cases i (length E)) as [Hlt|Hge].
  - rewrite nth_error_app1 in Hn by exact Hlt. destruct (Hw _ _ Hn) as (H1 & H2 & _).
    split; [exact H1|split; [exact H2|left]]. apply Had. eapply nth_error_In; eauto.
  - rewrite nth_error_app2 in Hn by exact Hge.
    destruct (i - length E)%nat as [|m] eqn:Em; [|destruct m; discriminate]. cbn in Hn. injection Hn as <-.
    assert (i = length E) by lia. subst i.
    split; [unfold nE in Hseq; exact Hseq|split; [exact Hsid|]].
    destruct Hcl as [H0|[H1 H2]]; [left; exact H0|right; split; [exact H1|split; [rewrite app_length; cbn; lia|exact H2]]].
Qed.

Lemma genuine_app E fr l : genuine E l -> w_seq fr = nE E -> genuine (E ++ [fr]) (fr :: l).
Proof.
  intros Hg Hseq f [<-|Hin].
  - rewrite Hseq. apply nthf_app2.
  - pose proof (Hg _ Hin) as H. rewrite nthf_app1; [exact H|]. eapply nthf_lt; eauto.
Qed.

Lemma nodup_cons_new E fr l : genuine E l -> NoDup (map w_seq l) -> w_seq fr = nE E -> NoDup (map w_seq (fr :: l)).
Proof.
  intros Hg Hnd Hseq. cbn. constructor; [|exact Hnd].
  intros Hin. apply in_map_iff in Hin as (f & Hf1 & Hf2). pose proof (nthf_lt _ _ _ (Hg _ Hf2)). lia.
Qed.

(* an arrival consumes the frame that was taken off the wire for it *)
Definition takes (a : act) (P P' : list wframe) : Prop :=
  match a with AArrive fr => Permutation P (fr :: P') | _ => P' = P end.
(* fewer than 2^64-2 frames *)
Definition fits (E : list wframe) : Prop := nE E + 2 < two64.

(* PD as a statement about the three things it looks at: the sender's half sv, the frames IF on the
   wire or being processed, the receiver's half rv; each visible action changes one or two of them *)
Definition PDv (sv : option (N * N * bool)) (IF : list wframe) (rv : option (rbuf * bool))
               (E : list wframe) (Rd : list N) : Prop :=
  wfE E /\
  (forall q w, sv = Some (q, w, false) -> q = nE E /\ w = 0 /\ all_data E) /\
  (sv = None -> E = []) /\
  genuine E IF /\ NoDup (map w_seq IF) /\ recv_ok E IF Rd rv.

Lemma PD_PDv y E Rd P : PD y E Rd P = PDv (sview y) (inflight y ++ P) (rview y) E Rd.
Proof. reflexivity. Qed.

(* frames leave the wire *)
Lemma PDv_wire sv IF IF' rv E Rd :
  (forall f, In f IF' -> In f IF) -> NoDup (map w_seq IF') -> PDv sv IF rv E Rd -> PDv sv IF' rv E Rd.
Proof.
  intros Hsub Hnd' (Hw & Hs & Hn & Hg & Hnd & Hr). repeat (split; [assumption|]).
  split; [intros f Hf; apply Hg, Hsub, Hf|split; [exact Hnd'|eapply recv_ok_IF; eauto]].
Qed.
Lemma PDv_perm sv IF IF' rv E Rd : Permutation IF IF' -> PDv sv IF rv E Rd -> PDv sv IF' rv E Rd.
Proof.
  intros Hp H. eapply PDv_wire; [|eapply nodup_perm; [exact Hp|apply H]|exact H].
  intros f Hf. eapply Permutation_in; [symmetry; exact Hp|exact Hf].
Qed.
(* the sender's half may only have been closed *)
Lemma PDv_sender sv sv' IF rv E Rd :
  (forall q w, sv' = Some (q, w, false) -> sv = sv') -> (sv' = None -> sv = None) ->
  PDv sv IF rv E Rd -> PDv sv' IF rv E Rd.
Proof.
  intros H1 H2 (Hw & Hs & Hn & H). split; [exact Hw|split; [|split; [|exact H]]].
  - intros q w Hsv. apply Hs. now rewrite (H1 _ _ Hsv).
  - intros Hsv. apply Hn, H2, Hsv.
Qed.
Lemma PDv_receiver sv IF rv rv' E Rd Rd' :
  (recv_ok E IF Rd rv -> recv_ok E IF Rd' rv') -> PDv sv IF rv E Rd -> PDv sv IF rv' E Rd'.
Proof. intros H (Hw & Hs & Hn & Hg & Hnd & Hr). repeat (split; [assumption|]). exact (H Hr). Qed.
Lemma PDv_rclose sv IF rv rv' E Rd :
  rclose rv rv' -> nE E + 1 < two64 -> PDv sv IF rv E Rd -> PDv sv IF rv' E Rd.
Proof. intros Hrc Hb. apply PDv_receiver. intros Hr. eapply recv_ok_rclose; eauto. Qed.

(* the open sender numbers a frame and puts it on the wire *)
Lemma PDv_emit sv' IF rv E Rd q w fr :
  PDv (Some (q, w, false)) IF rv E Rd -> w_seq fr = q -> w_sid fr = sid ->
  (w_cl fr = 0 \/ (w_cl fr = 1 /\ w_pay fr = [])) ->
  (forall q' w', sv' = Some (q', w', false) -> q' = q + 1 /\ w' = w /\ w_cl fr = 0) -> sv' <> None ->
  fits (E ++ [fr]) -> PDv sv' (fr :: IF) rv (E ++ [fr]) Rd.
Proof.
  intros (Hw & Hs & Hn & Hg & Hnd & Hr) Hseq Hsid Hcl Hs' Hn' Hb.
  destruct (Hs _ _ eq_refl) as (-> & -> & Had). unfold fits in Hb. rewrite nE_app in Hb.
  split; [apply wfE_app; auto|]. split; [|split; [|split; [|split]]].
  - intros q' w' Hsv. destruct (Hs' _ _ Hsv) as (-> & -> & Hc0). split; [now rewrite nE_app|split; [reflexivity|]].
    intros f Hf. apply in_app_or in Hf as [Hf|[<-|[]]]; [apply Had; exact Hf|exact Hc0].
  - intros Hsv. contradiction.
  - apply genuine_app; assumption.
  - eapply nodup_cons_new; eauto.
  - apply recv_ok_emit; auto. lia.
Qed.

Lemma PD_step b y a y' E Rd P P' :
  vstep b y a y' -> PD y E Rd P -> fits (E ++ emitted [a]) -> takes a P P' ->
  PD y' (E ++ emitted [a]) (Rd ++ readout [a]) P'.
Proof.
  unfold fits, takes. intros Hv Hpd Hb HP.
  rewrite PD_PDv in Hpd |- *.
  destruct Hv as [y y' (Hp & Hsc & Hrc)
                 |y y' q w pay Hs1 Hs2 Hp Hr2
                 |y y' q w Hs1 Hs2 Hp Hrc
                 |y y' q w w' Hs1 Hs2 Hp Hrc
                 |y y' l Hbt Hp Hs2 Hr2
                 |y y' fr rb c Hr1 Hr2 Hi2 Hs2
                 |y y' rb c k d rb' Hr1 Hrd Hr2 Hi2 Hs2
                 |y y' Hs1 Hs2 Hi2 Hr2
                 |y y' Hr1 Hr2 Hi2 Hs2]; cbn [emitted readout flat_map app] in *; rewrite ?app_nil_r in *; try subst P'.
  - apply (PDv_rclose _ _ _ _ _ _ Hrc); [lia|]. apply (PDv_sender (sview y)).
    + intros q w Hsv. destruct Hsc as [Heq|(q0 & w0 & w0' & Ha & Hbb)]; congruence.
    + intros Hsv. destruct Hsc as [Heq|(q0 & w0 & w0' & Ha & Hbb)]; congruence.
    + eapply PDv_perm; [apply Permutation_app_tail; exact Hp|exact Hpd].
  - rewrite Hs2, Hr2. rewrite Hs1 in Hpd.
    eapply PDv_perm; [apply Permutation_app_tail; symmetry; exact Hp|].
    apply (PDv_emit _ _ _ _ _ q w); [exact Hpd|reflexivity|reflexivity| | |discriminate|exact Hb].
    + (* the closing flag of an open sender is 0 *)
      left. destruct Hpd as (_ & Hs & _). now destruct (Hs _ _ eq_refl) as (_ & -> & _).
    + intros q' w' Hsv. injection Hsv as <- <-. destruct Hpd as (_ & Hs & _). now destruct (Hs _ _ eq_refl) as (_ & -> & _).
  - rewrite Hs2. rewrite Hs1 in Hpd. apply (PDv_rclose _ _ _ _ _ _ Hrc); [lia|].
    eapply PDv_perm; [apply Permutation_app_tail; symmetry; exact Hp|].
    apply (PDv_emit _ _ _ _ _ q w); [exact Hpd|reflexivity|reflexivity|right; split; reflexivity|discriminate|discriminate|exact Hb].
  - rewrite Hs2. rewrite Hs1 in Hpd. apply (PDv_rclose _ _ _ _ _ _ Hrc); [lia|].
    apply (PDv_sender (Some (q, w, false))); [discriminate..|].
    eapply PDv_perm; [apply Permutation_app_tail; exact Hp|exact Hpd].
  - (* frames lost with their connection *)
    rewrite Hs2, Hr2.
    assert (Hpp : Permutation (inflight y ++ P) (l ++ (inflight y' ++ P))) by (rewrite app_assoc; apply Permutation_app_tail; exact Hp).
    eapply PDv_wire; [| |exact Hpd].
    + intros f Hf. eapply Permutation_in; [symmetry; exact Hpp|]. apply in_or_app. now right.
    + destruct Hpd as (_ & _ & _ & _ & Hnd & _). pose proof (nodup_perm _ _ Hpp Hnd) as H. rewrite map_app in H. eapply nodup_app_r; eauto.
  - rewrite Hs2, Hr2, Hi2. rewrite Hr1 in Hpd.
    assert (Hpp : Permutation (inflight y ++ P) (fr :: (inflight y ++ P'))) by (rewrite HP; symmetry; apply Permutation_middle).
    destruct Hpd as (Hw & Hs & Hn & Hg & Hnd & Hr).
    split; [exact Hw|split; [exact Hs|split; [exact Hn|split; [|split]]]].
    + intros f Hf. apply Hg. eapply Permutation_in; [symmetry; exact Hpp|now right].
    + pose proof (nodup_perm _ _ Hpp Hnd) as H. cbn in H. now inversion H.
    + eapply recv_ok_arrive; eauto. lia.
  - rewrite Hs2, Hr2, Hi2. rewrite Hr1 in Hpd. revert Hpd. apply PDv_receiver. intros Hr. eapply recv_ok_read; eauto.
  - (* the sender's object appears: nothing has been emitted *)
    rewrite Hs2, Hr2, Hi2. destruct Hpd as (Hw & _ & Hn & H). rewrite (Hn Hs1) in *.
    split; [exact Hw|split; [|split; [discriminate|exact H]]].
    intros q w Hsv. injection Hsv as <- <-. split; [reflexivity|split; [reflexivity|intros f []]].
  - rewrite Hs2, Hr2, Hi2. rewrite Hr1 in Hpd. revert Hpd. apply PDv_receiver, recv_ok_create.
Qed.

Lemma emitted_cons a l : emitted (a :: l) = emitted [a] ++ emitted l.
Proof. unfold emitted. cbn. now rewrite app_nil_r. Qed.
Lemma readout_cons a l : readout (a :: l) = readout [a] ++ readout l.
Proof. unfold readout. cbn. now rewrite app_nil_r. Qed.
Lemma nE_app_le E l1 l2 : nE (E ++ l1) <= nE (E ++ l1 ++ l2).
Proof. unfold nE. rewrite !app_length. lia. Qed.

Lemma fits_prefix E l : fits (E ++ l) -> fits E.
Proof. unfold fits. pose proof (nE_app_le E [] l). rewrite app_nil_r in *. cbn [app] in *. lia. Qed.

(* the id OpenStream is about to hand out has no stream object yet (MuxCount.fresh_open is the same
   predicate, and fresh_run below the same as MuxCount.fresh_opens: the lemmas of either file accept
   the other's) *)
Definition fresh_at (y : sys) (l : label) : Prop :=
  forall x, l = LOpen x -> lookup (se_nextsid (sess y x)) (se_objs (sess y x)) = None.

(* An invariant J over (state, frames emitted, bytes read, frames taken off the wire but not yet
   processed) that every visible action preserves is preserved by sequences of actions, by resolve,
   by the core part of a label and by step.  B bounds the frames emitted.  PD is the instance that goes
   all the way (PD_label = inv_label).  EX (MuxExact) and LV (MuxLive) are not preserved by every action
   on their own: each is bundled with PD (EXc, LVj) and uses inv_steps / inv_core / inv_resolve on the
   bundle for every label but the delivery of a frame of this stream to an open reader, which EX_label
   and LV_label treat on the state (MuxExact.deliver_own), between step_split and PD_core. *)
Section Invariant.
Variable b : bool.
Variable J : sys -> list wframe -> list N -> list wframe -> Prop.
Variable B : list wframe -> Prop.
Hypothesis B_prefix : forall E l, B (E ++ l) -> B E.
Hypothesis J_step : forall y a y' E Rd P P',
  vstep b y a y' -> J y E Rd P -> B (E ++ emitted [a]) -> takes a P P' ->
  J y' (E ++ emitted [a]) (Rd ++ readout [a]) P'.

(* the frames that arrive are taken from those popped off the wire *)
Lemma inv_steps y y' em rd ar : does s sid b y y' em rd ar -> forall E Rd P',
  J y E Rd (ar ++ P') -> B (E ++ em) -> J y' (E ++ em) (Rd ++ rd) P'.
Proof.
  intros (acts & Hv & <- & <- & <-).
  induction Hv as [y|y a y1 l y2 Hstep Hrest IH]; intros E Rd P' HJ HB.
  - cbn in *. now rewrite !app_nil_r.
  - rewrite emitted_cons, readout_cons, !app_assoc. rewrite emitted_cons, app_assoc in HB.
    apply IH; [|exact HB].
    eapply J_step; [exact Hstep|exact HJ|eapply B_prefix; exact HB|].
    destruct a; cbn; reflexivity.
Qed.

Hypothesis J_view : forall y y' E Rd P,
  inflight y' = inflight y -> sview y' = sview y -> rview y' = rview y -> J y E Rd P -> J y' E Rd P.

Lemma inv_resolve yc yr ps er E Rd :
  resolve (sy_pend yc) yc = (yr, ps, er) -> J yc E Rd [] -> B E ->
  J (set_pend yr ps) (E ++ ev_frames s sid er) (Rd ++ ev_pend_reads s sid er) [].
Proof.
  intros Er HJ HB. destruct (resolve_effect s sid _ _ _ _ _ Er) as (Hd & Hf & _).
  apply (J_view yr); [apply inflight_set_pend|apply sview_set_pend|apply rview_set_pend|]. rewrite Hf.
  apply (inv_steps _ _ _ _ _ (does_weaken s sid b _ _ _ _ _ Hd) E Rd []); [exact HJ|now rewrite app_nil_r].
Qed.

Section Label.
Variables (y : sys) (l : label) (E : list wframe) (Rd : list N).
Hypothesis Hb : droppy l = b.
Hypothesis Hwf : WF y.
Hypothesis Hfresh : fresh_at y l.
Hypothesis Hw2 : forall q w, sview y = Some (q, w, false) -> w <> 2.
Hypothesis HJ : J y E Rd [].
(* a frame of this direction is taken off the wire ... *)
Hypothesis J_pop : forall fr y1,
  keep fr = true -> Permutation (inflight y) (fr :: inflight y1) -> sview y1 = sview y -> rview y1 = rview y ->
  J y1 E Rd [fr].
(* ... and the receiver's session may drop it *)
Hypothesis J_drop : forall fr yc E' Rd', J yc E' Rd' [fr] -> J yc E' Rd' [].

Lemma inv_core ch yc ec :
  step_core y l ch = (yc, ec) -> B (E ++ ev_frames s sid ec) ->
  J yc (E ++ ev_frames s sid ec) (Rd ++ core_reads s sid l ec) [].
Proof.
  intros Ec HB.
  destruct (step_core_effect s sid _ _ _ _ _ Ec Hwf Hfresh Hw2)
    as [Hd|(c & cn & fr & q & ar & Hl & En & Eq & Hk & Hd & Harr)].
  - unfold plain_effect in Hd. rewrite Hb in Hd. exact (inv_steps _ _ _ _ _ Hd E Rd [] HJ HB).
  - destruct (pop_view s sid y _ cn fr q En Eq Hk) as (Hperm & Hs1 & Hr1).
    pose proof (J_pop fr _ Hk Hperm Hs1 Hr1) as HJ1. apply (does_weaken s sid b) in Hd.
    replace (core_reads s sid l ec) with (@nil N) by (rewrite Hl; reflexivity).
    destruct Harr as [->| ->]; [|apply (J_drop fr)]; exact (inv_steps _ _ _ _ _ Hd E Rd _ HJ1 HB).
Qed.

Lemma inv_label ch y' evs :
  step y l ch = (y', evs) -> B (E ++ ev_frames s sid evs) ->
  J y' (E ++ ev_frames s sid evs) (Rd ++ step_reads s sid l evs) [].
Proof.
  intros H HB. destruct (step_split s sid _ _ _ _ _ H) as (yc & ec & yr & ps & er & Ec & Er & -> & HE & HR).
  rewrite HE, HR, !app_assoc. rewrite HE, app_assoc in HB.
  apply (inv_resolve yc); [exact Er| |eapply B_prefix; exact HB].
  apply (inv_core ch); [exact Ec|eapply B_prefix; exact HB].
Qed.
End Label.
End Invariant.

(* the closing flag of an open sender is not the session-closing notice's *)
Lemma PD_wcl y E Rd P q w : PD y E Rd P -> sview y = Some (q, w, false) -> w <> 2.
Proof. intros (_ & Hs & _) Hsv. destruct (Hs _ _ Hsv) as (_ & -> & _). lia. Qed.

(* PD only looks at the view *)
Lemma PD_same_view y y' E Rd P :
  inflight y' = inflight y -> sview y' = sview y -> rview y' = rview y -> PD y E Rd P -> PD y' E Rd P.
Proof. unfold PD. intros -> -> ->. exact (fun H => H). Qed.

Lemma PD_drop_P y E Rd P : PD y E Rd P -> PD y E Rd [].
Proof.
  intros H. rewrite PD_PDv in *. apply (PDv_wire _ (inflight y ++ P)); [| |exact H]; rewrite app_nil_r.
  - intros f Hf. apply in_or_app. now left.
  - destruct H as (_ & _ & _ & _ & Hnd & _). rewrite map_app in Hnd. eapply nodup_app_l; exact Hnd.
Qed.

(* a frame is taken off the wire for the receiving session: it becomes pending *)
Lemma PD_pop y y1 E Rd fr :
  PD y E Rd [] -> Permutation (inflight y) (fr :: inflight y1) -> sview y1 = sview y -> rview y1 = rview y ->
  PD y1 E Rd [fr].
Proof.
  intros H Hp Hs1 Hr1. rewrite PD_PDv in *. rewrite Hs1, Hr1.
  apply (PDv_perm _ (inflight y ++ [])); [|exact H]. rewrite app_nil_r, Hp. apply Permutation_cons_append.
Qed.

Notation ev_frames := (ev_frames s sid).
Notation step_reads := (step_reads s sid).

Lemma PD_core y l ch yc ec E Rd :
  step_core y l ch = (yc, ec) -> WF y -> PD y E Rd [] -> fresh_at y l -> fits (E ++ ev_frames ec) ->
  PD yc (E ++ ev_frames ec) (Rd ++ core_reads s sid l ec) [].
Proof.
  intros H Hwf Hpd Hfresh Hb.
  apply (inv_core (droppy l) PD fits fits_prefix (PD_step _) y l E Rd eq_refl Hwf Hfresh
           (fun q w => PD_wcl _ _ _ _ q w Hpd) Hpd) with (ch := ch); [| |exact H|exact Hb].
  - intros fr y1 _. now apply PD_pop.
  - intros fr yc' E' Rd'. apply PD_drop_P.
Qed.

Lemma PD_label y l ch y' evs E Rd :
  step y l ch = (y', evs) -> WF y -> PD y E Rd [] -> fresh_at y l ->
  nE (E ++ ev_frames evs) + 2 < two64 ->
  PD y' (E ++ ev_frames evs) (Rd ++ step_reads l evs) [].
Proof.
  intros H Hwf Hpd Hfresh Hb.
  apply (inv_label (droppy l) PD fits fits_prefix (PD_step _) PD_same_view y l E Rd eq_refl Hwf Hfresh
           (fun q w => PD_wcl _ _ _ _ q w Hpd) Hpd) with (ch := ch); [| |exact H|exact Hb].
  - intros fr y1 _. now apply PD_pop.
  - intros fr yc E' Rd'. apply PD_drop_P.
Qed.

Fixpoint run_frames (os : list (list ev)) : list wframe :=
  match os with [] => [] | evs :: t => ev_frames evs ++ run_frames t end.
Fixpoint run_reads (ls : list (label * list N)) (os : list (list ev)) : list N :=
  match ls, os with
  | (l, _) :: lt, evs :: ot => step_reads l evs ++ run_reads lt ot
  | _, _ => []
  end.
Fixpoint fresh_run (y : sys) (ls : list (label * list N)) : Prop :=
  match ls with
  | [] => True
  | (l, ch) :: t => fresh_at y l /\ fresh_run (fst (step y l ch)) t
  end.

(* an invariant J of (state, frames emitted, bytes read) that every label preserves, under side
   conditions R on the rest of the run that travel along it, is preserved by run *)
Section Run.
Variable J : sys -> list wframe -> list N -> Prop.
Variable B : list wframe -> Prop.
Variable R : sys -> list (label * list N) -> Prop.
Hypothesis B_prefix : forall E l, B (E ++ l) -> B E.
Hypothesis R_next : forall y l ch t, R y ((l, ch) :: t) -> R (fst (step y l ch)) t.
Hypothesis J_label : forall y l ch t y' evs E Rd,
  R y ((l, ch) :: t) -> step y l ch = (y', evs) -> J y E Rd -> B (E ++ ev_frames evs) ->
  J y' (E ++ ev_frames evs) (Rd ++ step_reads l evs).

Lemma inv_run ls : forall y y' os E Rd,
  run y ls = (y', os) -> R y ls -> J y E Rd -> B (E ++ run_frames os) ->
  J y' (E ++ run_frames os) (Rd ++ run_reads ls os).
Proof.
  induction ls as [|[l ch] t IH]; intros y y' os E Rd H HR HJ HB; cbn in H.
  - injection H as <- <-. cbn. now rewrite !app_nil_r.
  - destruct (step y l ch) as [y1 o1] eqn:Es. destruct (run y1 t) as [y2 os2] eqn:Er. injection H as <- <-.
    cbn [run_frames run_reads]. rewrite !app_assoc. cbn [run_frames] in HB. rewrite app_assoc in HB.
    apply (IH y1); [exact Er| | |exact HB].
    + apply R_next in HR. now rewrite Es in HR.
    + eapply J_label; [exact HR|exact Es|exact HJ|eapply B_prefix; exact HB].
Qed.
End Run.

Lemma fresh_run_next y l ch t : fresh_run y ((l, ch) :: t) -> fresh_run (fst (step y l ch)) t.
Proof. now intros [_ H]. Qed.

Lemma PD_run ls y y' os E Rd :
  run y ls = (y', os) -> WF y -> PD y E Rd [] -> fresh_run y ls ->
  nE (E ++ run_frames os) + 2 < two64 ->
  PD y' (E ++ run_frames os) (Rd ++ run_reads ls os) [].
Proof.
  intros H Hwf Hpd Hfr Hb.
  apply (inv_run (fun y E Rd => WF y /\ PD y E Rd []) fits fresh_run fits_prefix fresh_run_next) with (ls := ls) (y := y);
    auto.
  intros y0 l ch t y1 evs E0 Rd0 [Hf _] Hs [Hw Hp] Hb0. split; [eapply step_WF; eauto|eapply PD_label; eauto].
Qed.

Lemma inflight_init k sp u ta tb : inflight (init k sp u ta tb) = [].
Proof. unfold MuxView.inflight, init. cbn [sy_conns]. induction k as [|k IH]; [reflexivity|]. cbn. destruct (other s); exact IH. Qed.

Lemma PD_init k sp u ta tb : PD (init k sp u ta tb) [] [] [].
Proof.
  unfold PD. rewrite inflight_init. cbn [app].
  split; [intros i fr H; destruct i; discriminate|].
  split; [intros q w H; unfold MuxView.sview in H; destruct s; discriminate|].
  split; [reflexivity|]. split; [intros fr []|]. split; [constructor|].
  replace (rview (init k sp u ta tb)) with (@None (rbuf * bool)); [now constructor|].
  unfold MuxView.rview. destruct s; reflexivity.
Qed.

Lemma firstn_S_nth {A} (l : list A) k x : nth_error l k = Some x -> firstn (S k) l = firstn k l ++ [x].
Proof. revert k; induction l as [|a t IH]; intros [|k] H; cbn in *; try discriminate.
  - injection H as ->. reflexivity.
  - now rewrite (IH _ H). Qed.

Lemma cat_FE E : forall k, (k <= length E)%nat -> cat (FE E) 0 k = flat_map w_pay (firstn k E).
Proof.
  induction k as [|k IH]; intros Hk; [reflexivity|].
  rewrite cat_snoc, IH by lia. cbn [N.add].
  destruct (nth_error E k) as [fr|] eqn:En; [|apply nth_error_None in En; lia].
  rewrite (firstn_S_nth _ _ _ En), flat_map_app. cbn. rewrite app_nil_r. f_equal.
  unfold P, FE, nthf. rewrite Nat2N.id, En. reflexivity.
Qed.

(* all bytes carried by the data frames emitted so far, in emission order *)
Definition data_bytes (E : list wframe) : list N := flat_map w_pay (firstn (N.to_nat (ndata E)) E).

Lemma ndata_le E : ndata E <= nE E.
Proof. unfold ndata. destruct (_ =? _); lia. Qed.

Lemma firstn_prefix {A} (l : list A) a b : (a <= b)%nat -> exists t, firstn b l = firstn a l ++ t.
Proof.
  revert a b; induction l as [|x l IH]; intros a b H.
  - exists []. now rewrite !firstn_nil.
  - destruct a as [|a]; [exists (firstn b (x :: l)); reflexivity|].
    destruct b as [|b]; [lia|]. destruct (IH a b) as (t & Ht); [lia|]. exists t. cbn. now rewrite Ht.
Qed.

Theorem PD_read_prefix y E Rd :
  PD y E Rd [] -> nE E + 1 < two64 -> exists tail, data_bytes E = Rd ++ tail.
Proof.
  intros (Hw & Hs & Hn & Hg & Hnd & Hr) Hb.
  assert (Hk : exists k rest, N.of_nat k <= ndata E /\ cat (FE E) 0 k = Rd ++ rest).
  { remember (rview y) as rv. clear Heqrv.
    destruct Hr as [Hr0|rb A Hp HI HA Hd|rb Hp Hc Ho Hi|rb k Hp Hk Ho].
    - exists 0%nat, []. subst Rd. split; [lia|reflexivity].
    - destruct (Inv_next_bound _ _ _ _ HI HA Hb) as (k & Hk1 & Hk2). exists k, (pipe rb). auto.
    - exists (N.to_nat (ndata E)), (pipe rb). split; [lia|auto].
    - exists k, (pipe rb). auto. }
  destruct Hk as (k & rest & Hk & Hc).
  pose proof (ndata_le E) as Hle.
  rewrite cat_FE in Hc by (unfold nE in *; lia).
  destruct (firstn_prefix E k (N.to_nat (ndata E))) as (t & Ht); [lia|].
  exists (rest ++ flat_map w_pay t). unfold data_bytes. rewrite Ht, flat_map_app, Hc, app_assoc. reflexivity.
Qed.

Theorem PD_numbering y E Rd : PD y E Rd [] ->
  forall i fr, nth_error E i = Some fr ->
    w_seq fr = N.of_nat i /\ w_sid fr = sid /\ (w_cl fr = 0 \/ (w_cl fr = 1 /\ S i = length E /\ w_pay fr = [])).
Proof. intros (Hw & _). exact Hw. Qed.

(* the sequence number of an open sender is the number of frames it has emitted, all of them data *)
Theorem PD_sender_open y E Rd q w : PD y E Rd [] -> sview y = Some (q, w, false) -> q = nE E /\ all_data E.
Proof. intros (_ & Hs & _) Hsv. destruct (Hs _ _ Hsv) as (H1 & _ & H3). auto. Qed.

Lemma data_bytes_all E : wfE E -> data_bytes E = flat_map w_pay E.
Proof.
  intros Hw. unfold data_bytes, ndata.
  destruct (cl_of E =? two64) eqn:Ec.
  - unfold nE. rewrite Nat2N.id, firstn_all. reflexivity.
  - (* the closing frame carries no payload *)
    destruct (cl_of_last E) as [?|(E0 & lst & -> & Hcl & _)]; [lia|]. rewrite nE_app.
    destruct (Hw (length E0) lst) as (_ & _ & [H0|(_ & _ & Hp)]); [rewrite nth_error_app2, Nat.sub_diag; auto|lia|].
    replace (N.to_nat (nE E0 + 1 - 1)) with (length E0) by (unfold nE; lia).
    rewrite firstn_app, firstn_all, Nat.sub_diag, !flat_map_app. cbn. now rewrite Hp.
Qed.

Notation run_written := (run_written s sid).

Lemma run_payload ls : forall y y' os E Rd,
  run y ls = (y', os) -> WF y -> PD y E Rd [] -> fresh_run y ls ->
  nE (E ++ run_frames os) + 2 < two64 ->
  flat_map w_pay (run_frames os) = run_written ls os.
Proof.
  induction ls as [|[l ch] t IH]; intros y y' os E Rd H Hwf Hpd Hfr Hb; cbn in H.
  - injection H as <- <-. reflexivity.
  - destruct (step y l ch) as [y1 o1] eqn:Es. destruct (run y1 t) as [y2 os2] eqn:Er. injection H as <- <-.
    cbn [run_frames MuxPay.run_written]. rewrite flat_map_app. cbn [run_frames] in Hb. rewrite app_assoc in Hb.
    destruct Hfr as [Hf1 Hf2]. rewrite Es in Hf2. cbn [fst] in Hf2.
    assert (Hw0 : forall q w, sview y = Some (q, w, false) -> w = 0).
    { intros q w Hsv. destruct Hpd as (_ & Hs & _). destruct (Hs _ _ Hsv) as (_ & -> & _). reflexivity. }
    rewrite (step_payload s sid _ _ _ _ _ Es Hwf Hw0). f_equal.
    assert (Hb1 : nE (E ++ ev_frames o1) + 2 < two64).
    { pose proof (nE_app_le E (ev_frames o1) (run_frames os2)). rewrite <- app_assoc in Hb. lia. }
    eapply (IH y1); [exact Er|eapply step_WF; eauto|eapply PD_label; eauto|exact Hf2|exact Hb].
Qed.
End Data.

Section Reach.
Variables (k : nat) (sp : bool) (u : N) (ta tb : Z).

Definition outputs (ls : list (label * list N)) : list (list ev) := snd (run (init k sp u ta tb) ls).

Theorem reach_PD s sid ls :
  fresh_run (init k sp u ta tb) ls ->
  nE (run_frames s sid (outputs ls)) + 2 < two64 ->
  PD s sid (reach k sp u ta tb ls) (run_frames s sid (outputs ls)) (run_reads s sid ls (outputs ls)) [].
Proof.
  intros Hf Hb. unfold reach, outputs in *. destruct (run (init k sp u ta tb) ls) as [y os] eqn:Er. cbn [fst snd] in *.
  pose proof (PD_run s sid ls _ _ _ [] [] Er (init_WF _ _ _ _ _) (PD_init s sid _ _ _ _ _) Hf) as H.
  cbn [app] in H. apply H. exact Hb.
Qed.

(* C13: in each direction of each stream the frames put on the wire are numbered 0,1,2,... in
   emission order, each number once; a closing frame, if any, is the last one *)
Theorem frames_numbered s sid ls :
  fresh_run (init k sp u ta tb) ls ->
  nE (run_frames s sid (outputs ls)) + 2 < two64 ->
  forall i fr, nth_error (run_frames s sid (outputs ls)) i = Some fr ->
    w_seq fr = N.of_nat i /\ w_sid fr = sid /\
    (w_cl fr = 0 \/ (w_cl fr = 1 /\ S i = length (run_frames s sid (outputs ls)) /\ w_pay fr = [])).
Proof. intros Hf Hb. eapply PD_numbering. apply reach_PD; assumption. Qed.

(* C01 / C12 (prefix part): whatever happens - any arrival order across connections, faults,
   closes by anybody, timers - what the reader of a stream has been given is a prefix of the bytes
   the data frames of the writer carry, in order *)
Theorem reads_are_prefix s sid ls :
  fresh_run (init k sp u ta tb) ls ->
  nE (run_frames s sid (outputs ls)) + 2 < two64 ->
  exists tail, data_bytes (run_frames s sid (outputs ls)) = run_reads s sid ls (outputs ls) ++ tail.
Proof. intros Hf Hb. eapply PD_read_prefix; [apply reach_PD; assumption|lia]. Qed.

Lemma reach_payload s sid ls :
  fresh_run (init k sp u ta tb) ls ->
  nE (run_frames s sid (outputs ls)) + 2 < two64 ->
  flat_map w_pay (run_frames s sid (outputs ls)) = run_written s sid ls (outputs ls).
Proof.
  intros Hf Hb. unfold outputs in *. destruct (run (init k sp u ta tb) ls) as [y os] eqn:Er. cbn [snd] in *.
  eapply (run_payload s sid ls _ _ _ [] []); [exact Er|apply init_WF|apply PD_init|exact Hf|exact Hb].
Qed.

(* C13 / C01: the data frames of a direction carry, in emission order, exactly the bytes the
   writes on that stream reported as accepted *)
Theorem frames_carry_written s sid ls :
  fresh_run (init k sp u ta tb) ls ->
  nE (run_frames s sid (outputs ls)) + 2 < two64 ->
  data_bytes (run_frames s sid (outputs ls)) = run_written s sid ls (outputs ls).
Proof.
  intros Hf Hb. destruct (reach_PD s sid ls Hf Hb) as (Hw & _).
  rewrite (data_bytes_all sid _ Hw). now apply reach_payload.
Qed.

(* C01: what the reader of a stream has been given is a prefix of what the writer's writes accepted *)
Theorem reads_prefix_of_written s sid ls :
  fresh_run (init k sp u ta tb) ls ->
  nE (run_frames s sid (outputs ls)) + 2 < two64 ->
  exists tail, run_written s sid ls (outputs ls) = run_reads s sid ls (outputs ls) ++ tail.
Proof.
  intros Hf Hb. rewrite <- (frames_carry_written s sid ls Hf Hb). apply reads_are_prefix; assumption.
Qed.
End Reach.
