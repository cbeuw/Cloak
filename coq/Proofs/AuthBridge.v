(* The bridge between the independent grammar (Model/HelloGrammar.v) and the model of the server's own
   first-packet parser (Model/Hello.v: parseClientHello / parseExtensions / parseKeyShare /
   unmarshalClientHello with Go slice capacities and recover()):
   on every byte string that satisfies wf_client_hello the server's parser succeeds and extracts exactly
   the fields locate_fields returns - so server_process_tls (Model/Auth.v), which uses the locator, is the
   server's processFirstPacket on well-formed hellos, and the agreement theorem holds of that parser. *)
From Coq Require Import NArith ZArith List Bool Arith Lia ZifyN ZifyNat ZifyBool.
From Cloak Require Import Model.Hello Model.HelloGrammar Model.Auth Proofs.ListFacts Proofs.Hello Proofs.HelloGrammar Proofs.Auth.
Import ListNotations.
Local Open Scope N_scope.

Lemma take_app : forall a b, take (length a) (a ++ b) = Ok (a, b).
Proof.
  intros a b. unfold take. rewrite app_length.
  replace (length a <=? length a + length b)%nat with true by (symmetry; apply Nat.leb_le; lia).
  rewrite firstn_app_exact, skipn_app_exact by reflexivity. reflexivity.
Qed.
Lemma take_app_n : forall n a b, n = length a -> take n (a ++ b) = Ok (a, b).
Proof. intros; subst; apply take_app. Qed.

Lemma bytes_eqb_pair : forall a b t1 t0, a < 256 -> b < 256 -> t1 < 256 -> t0 < 256 ->
  bytes_eqb [a; b] [t1; t0] = (a * 256 + b =? t1 * 256 + t0).
Proof.
  intros a b t1 t0 Ha Hb H1 H0. cbn [bytes_eqb]. rewrite andb_true_r.
  destruct (a =? t1) eqn:E1, (b =? t0) eqn:E0; cbn [andb]; lia.
Qed.

Lemma wf_bytes_app : forall a b, wf_bytes (a ++ b) <-> wf_bytes a /\ wf_bytes b.
Proof. intros. unfold wf_bytes. apply Forall_app. Qed.

(* the first extension / key-share entry of a parsed list of well-formed bytes *)
Lemma tlvs_cons_inv : forall x l es, parse_tlvs (x :: l) = Some es -> wf_bytes (x :: l) ->
  exists t1 t0 l1 l0 d rest es',
    x :: l = [t1; t0; l1; l0] ++ d ++ rest /\ es = (t1 * 256 + t0, d) :: es' /\
    length d = N.to_nat (l1 * 256 + l0) /\ parse_tlvs rest = Some es' /\
    (t1 < 256 /\ t0 < 256 /\ l1 < 256 /\ l0 < 256) /\ wf_bytes rest.
Proof.
  intros x l es H Hw. destruct (parse_tlv (x :: l)) as [[[t d] rest]|] eqn:E.
  2:{ unfold parse_tlvs in H. cbn [length parse_tlvs_fuel] in H. rewrite E in H. discriminate. }
  rewrite (parse_tlvs_step _ _ _ E) in H. destruct (parse_tlvs rest) as [es'|] eqn:E'; [|discriminate].
  destruct (parse_tlv_inv _ _ _ E) as (t1 & t0 & l1 & l0 & El & Efst & Elen). cbn [fst snd] in *.
  rewrite El in Hw. apply wf_bytes_app in Hw as [Hw4 Hw']. apply wf_bytes_app in Hw' as [_ Hwr].
  pose proof (proj1 (Forall_forall _ _) Hw4) as B. cbn [In] in B.
  exists t1, t0, l1, l0, d, rest, es'. inversion H. subst t. repeat split; auto 6.
Qed.

Lemma nodup_assoc_none : forall k es, nodup_b (k :: map fst es) = true -> assoc k es = None.
Proof.
  intros k es H. cbn [nodup_b] in H. apply andb_prop in H. destruct H as [H _]. apply negb_true_iff in H.
  induction es as [|[k' v] es IH]; [reflexivity|].
  cbn [map fst existsb] in H. apply orb_false_elim in H. destruct H as [H1 H2].
  cbn [assoc]. rewrite H1. apply IH. exact H2.
Qed.

Lemma pe_step : forall f t1 t0 l1 l0 d rest' acc,
  length d = N.to_nat (l1 * 256 + l0) ->
  pe_loop (S f) ([t1; t0; l1; l0] ++ d ++ rest') acc = pe_loop f rest' (([t1; t0], mkS d rest') :: acc).
Proof.
  intros f t1 t0 l1 l0 d rest' acc Hd. cbn [pe_loop app].
  change (t1 :: t0 :: l1 :: l0 :: d ++ rest') with ([t1; t0] ++ [l1; l0] ++ d ++ rest').
  rewrite (take_app_n 2 [t1; t0]) by reflexivity. cbn [bind].
  rewrite (take_app_n 2 [l1; l0]) by reflexivity. cbn [bind].
  rewrite be_val_2, (take_app_n _ d) by (symmetry; exact Hd). cbn [bind]. reflexivity.
Qed.

(* parseExtensions on a duplicate-free extension list: the map's key_share entry is the extension's body (with the
   bytes after it as capacity) if there is one, and whatever the map held before otherwise *)
Lemma pe_loop_key_share : forall f rest acc es, (length rest < f)%nat -> parse_tlvs rest = Some es -> wf_bytes rest ->
  nodup_b (map fst es) = true ->
  exists m, pe_loop f rest acc = Ok m /\
    match assoc ext_key_share es with
    | Some d => exists post, ext_get key_share_ext m = mkS d post
    | None => ext_get key_share_ext m = ext_get key_share_ext acc
    end.
Proof.
  induction f as [|f IH]; intros rest acc es Hf Hp Hw Hn; [lia|].
  destruct rest as [|x l].
  - inversion Hp. exists acc. split; reflexivity.
  - destruct (tlvs_cons_inv x l es Hp Hw) as (t1 & t0 & l1 & l0 & d & rest' & es' & El & -> & Elen & Ep & (B1 & B0 & _) & Hwr).
    rewrite El in *. rewrite pe_step by exact Elen. cbn [map fst] in Hn.
    destruct (IH rest' (([t1; t0], mkS d rest') :: acc) es') as (m & Em & Eg); try assumption.
    { rewrite !app_length in Hf. cbn [length] in Hf. lia. }
    { cbn [nodup_b] in Hn. apply andb_prop in Hn. apply Hn. }
    exists m. split; [exact Em|]. cbn [assoc ext_get] in *. unfold key_share_ext, ext_key_share in *.
    rewrite bytes_eqb_pair in Eg by lia. change (0 * 256 + 51) with 51 in Eg.
    destruct (51 =? t1 * 256 + t0) eqn:E51; [|exact Eg].
    apply N.eqb_eq in E51. rewrite <- E51 in Hn. rewrite (nodup_assoc_none 51 es' Hn) in Eg. eauto.
Qed.

Lemma gs_sub_vis : forall s P M Q lo hi, gs_all s = P ++ M ++ Q -> lo = length P -> hi = (lo + length M)%nat ->
  exists ex, gs_sub lo hi s = Ok (mkS M ex).
Proof.
  intros s P M Q lo hi Hall -> ->. unfold gs_sub, gs_cap. rewrite Hall, !app_length.
  replace ((length P <=? length P + length M)%nat && (length P + length M <=? length P + (length M + length Q))%nat)
    with true by lia.
  rewrite skipn_app_exact by reflexivity.
  replace (length P + length M - length P)%nat with (length M) by lia.
  rewrite firstn_app_exact by reflexivity. eexists. reflexivity.
Qed.

(* parseKeyShare's loop with its pointer at length A: A is the part of the slice (seen up to its capacity) already
   walked, bytes the entries still to come as the grammar parsed them, B whatever lies beyond the declared list;
   the last premise says that the loop guard pointer < totalLen holds as long as an entry is left *)
Lemma pks_found : forall f bytes ents A B k totalLen input,
  (length bytes < f)%nat -> parse_tlvs bytes = Some ents -> wf_bytes bytes ->
  assoc group_x25519 ents = Some k -> length k = 32%nat ->
  gs_all input = A ++ bytes ++ B -> (length A + length bytes <= totalLen + 2)%nat ->
  pks_loop f totalLen (length A) input = Ok k.
Proof.
  induction f as [|f IH]; intros bytes ents A B k totalLen input Hf Hp Hw Ha Hk Hall Ht; [lia|].
  destruct bytes as [|x l].
  - unfold parse_tlvs in Hp. cbn in Hp. inversion Hp; subst. discriminate.
  - destruct (tlvs_cons_inv x l ents Hp Hw) as (g1 & g0 & l1 & l0 & d & rest' & es' & El & -> & Elen & Ep & (B1 & B0 & C1 & C0) & Hwr).
    cbn [assoc] in Ha. unfold group_x25519 in Ha. rewrite El in *.
    rewrite !app_length in Ht, Hf. cbn [length] in Ht, Hf.
    cbn [pks_loop].
    replace (length A <? totalLen)%nat with true by (symmetry; apply Nat.ltb_lt; destruct (29 =? g1 * 256 + g0); lia).
    destruct (gs_sub_vis input A [g1; g0] ([l1; l0] ++ d ++ rest' ++ B) (length A) (length A + 2)) as (ex1 & E1);
      [rewrite Hall, <- !app_assoc; reflexivity|reflexivity|reflexivity|].
    rewrite E1. cbn [bind vis].
    destruct (gs_sub_vis input (A ++ [g1; g0]) [l1; l0] (d ++ rest' ++ B) (length A + 2) (length A + 4)) as (ex2 & E2);
      [rewrite Hall, <- !app_assoc; reflexivity|rewrite app_length; reflexivity|cbn [length]; lia|].
    assert (Ebv : N.to_nat (be_val [l1; l0]) = length d) by (rewrite be_val_2; lia).
    destruct (gs_sub_vis input (A ++ [g1; g0; l1; l0]) d (rest' ++ B) (length A + 4) (length A + 4 + length d)) as (ex3 & E3);
      [rewrite Hall, <- !app_assoc; reflexivity|rewrite app_length; reflexivity|lia|].
    rewrite bytes_eqb_pair by lia.
    destruct (29 =? g1 * 256 + g0) eqn:E29.
    + inversion Ha; subst d.
      replace (0 * 256 + 29 =? g1 * 256 + g0) with true by lia.
      rewrite E2. cbn [bind vis]. rewrite Ebv, Hk. cbn [Nat.eqb negb].
      rewrite Hk in E3. rewrite E3. cbn [bind vis]. reflexivity.
    + replace (0 * 256 + 29 =? g1 * 256 + g0) with false by lia.
      rewrite E2. cbn [bind vis]. rewrite Ebv, E3. cbn [bind].
      replace (length A + 4 + length d)%nat with (length (A ++ [g1; g0; l1; l0] ++ d))
        by (rewrite !app_length; cbn [length]; lia).
      apply (IH rest' es' (A ++ [g1; g0; l1; l0] ++ d) B k totalLen input); try assumption.
      * lia.
      * rewrite Hall, <- !app_assoc. reflexivity.
      * rewrite !app_length. cbn [length]. lia.
Qed.

Lemma parseKeyShare_found : forall d post k, x25519_share d = Some k -> wf_bytes d ->
  parseKeyShare (mkS d post) = Ok k.
Proof.
  intros d post k H Hw. unfold x25519_share, key_share_entries in H.
  destruct d as [|k1 [|k0 entries]]; try discriminate.
  destruct (k1 * 256 + k0 =? lenN entries) eqn:El; [|discriminate].
  destruct (parse_tlvs entries) as [ents|] eqn:E; [|discriminate].
  destruct (assoc group_x25519 ents) as [k'|] eqn:Ea; [|discriminate].
  destruct (length k' =? 32)%nat eqn:Ek; [|discriminate]. inversion H; subst k'.
  apply Nat.eqb_eq in Ek. apply N.eqb_eq in El.
  inversion Hw as [|? ? B1 Hw1]; subst. inversion Hw1 as [|? ? B0 Hwe]; subst.
  unfold parseKeyShare, parseKeyShare_raw.
  destruct (gs_sub_vis (mkS (k1 :: k0 :: entries) post) [] [k1; k0] (entries ++ post) 0 2) as (ex & E0);
    [unfold gs_all; cbn [vis extra app]; reflexivity|reflexivity|reflexivity|].
  rewrite E0. cbn [bind vis].
  assert (Ebv : N.to_nat (be_val [k1; k0]) = length entries) by (rewrite be_val_2, El; apply to_nat_lenN).
  rewrite Ebv.
  assert (HP : pks_loop (S (gs_cap (mkS (k1 :: k0 :: entries) post))) (length entries) (length [k1; k0])
                 (mkS (k1 :: k0 :: entries) post) = Ok k).
  { apply (pks_found _ entries ents [k1; k0] post k); try assumption.
    - unfold gs_cap, gs_all. cbn [vis extra]. cbn [length app]. rewrite app_length. lia.
    - unfold gs_all. cbn [vis extra app]. reflexivity.
    - cbn [length]. lia. }
  cbn [length] in HP. rewrite HP. reflexivity.
Qed.

Lemma take1_cons : forall x r, take1 (x :: r) = Ok (x, r).
Proof. reflexivity. Qed.
Lemma take1_single : forall x r, take1 ([x] ++ r) = Ok (x, r).
Proof. reflexivity. Qed.

(* the server's parser on a well-formed hello *)
Lemma parseClientHello_wf : forall name l h, parse_client_hello l = Some h -> wf_hello name h = true -> wf_bytes l ->
  exists ch d post, parseClientHello l = Ok ch /\ ch_random ch = h_random h /\ ch_sessionId ch = h_sid h /\
                    assoc ext_key_share (h_exts h) = Some d /\ ext_get key_share_ext (ch_extensions ch) = mkS d post /\ wf_bytes d.
Proof.
  intros name l h Hp Hwf Hw.
  destruct (parse_client_hello_layout l h Hp)
    as (l1 & l0 & n2 & n1 & n0 & v1 & v0 & w1 & w0 & c1 & c0 & m & e1 & e0 & exts & Heq & Hver & Hlen & Hr & Hs & Hc & Hpe).
  cbv zeta in Heq, Hlen.
  (* facts from wf_hello *)
  assert (Hnd : nodup_b (map fst (h_exts h)) = true /\ exists k, hello_share h = Some k).
  { unfold wf_hello in Hwf. repeat (apply andb_prop in Hwf; let H' := fresh "W" in destruct Hwf as [Hwf H']).
    split; [assumption|]. destruct (hello_share h) as [k|]; [exists k; reflexivity|discriminate]. }
  destruct Hnd as [Hnd [k Hk]].
  unfold hello_share in Hk. destruct (assoc ext_key_share (h_exts h)) as [d|] eqn:Ea; [|discriminate].
  (* bytes *)
  assert (Hw' := Hw). rewrite Heq in Hw'.
  apply wf_bytes_app in Hw'. destruct Hw' as [Hw5 Hw'].
  assert (Bw1 : w1 < 256) by (apply (proj1 (Forall_forall _ _) Hw5); cbn [In]; auto).
  assert (Bw0 : w0 < 256) by (apply (proj1 (Forall_forall _ _) Hw5); cbn [In]; auto).
  assert (E31 : w1 = 3 /\ w0 = 1) by lia. destruct E31 as [E3 E1]. rewrite E3, E1 in *. clear E3 E1.
  set (body := [v1; v0] ++ h_random h ++ [N.of_nat (length (h_sid h))] ++ h_sid h ++ [c1; c0] ++ h_suites h ++
               [m] ++ h_comps h ++ [e1; e0] ++ exts) in *.
  assert (Hwe : wf_bytes exts).
  { apply wf_bytes_app in Hw'. destruct Hw' as [_ Hb]. unfold body in Hb.
    repeat (apply wf_bytes_app in Hb; destruct Hb as [_ Hb]). exact Hb. }
  destruct (pe_loop_key_share (S (length exts)) exts [] (h_exts h)) as (mm & Em & Eg); try assumption; [lia|].
  rewrite Ea in Eg. destruct Eg as [post Eg].
  assert (Hwd : wf_bytes d).
  { destruct (parse_tlvs_infix _ _ _ _ Hpe Ea) as (p1 & p2 & Ei). rewrite Ei in Hwe.
    apply wf_bytes_app in Hwe. destruct Hwe as [_ Hwe]. apply wf_bytes_app in Hwe. apply Hwe. }
  exists (mkCH 1 (lenN body) [v1; v0] (h_random h) (N.to_nat (N.of_nat (length (h_sid h)))) (h_sid h)
               (N.to_nat (be_val [c1; c0])) (h_suites h) (N.to_nat m) (h_comps h) (N.to_nat (be_val [e1; e0])) mm), d, post.
  split; [|cbn [ch_random ch_sessionId ch_extensions]; repeat split; assumption].
  unfold parseClientHello, parseClientHello_raw. rewrite Heq.
  change ([22; 3; 1; l1; l0] ++ [1; n2; n1; n0] ++ body) with ([22; 3; 1] ++ [l1; l0] ++ [1; n2; n1; n0] ++ body).
  rewrite (take_app_n 3 [22; 3; 1]) by reflexivity. cbn [bind].
  change (negb (bytes_eqb [22; 3; 1] [22; 3; 1])) with false. cbv iota.
  change ([22; 3; 1] ++ [l1; l0] ++ [1; n2; n1; n0] ++ body) with ([22; 3; 1; l1; l0] ++ [1; n2; n1; n0] ++ body).
  rewrite (take_app_n 5 [22; 3; 1; l1; l0]) by reflexivity. cbn [bind].
  cbn [app]. rewrite take1_cons. cbn [bind]. change (negb (1 =? 1)) with false. cbv iota.
  change (n2 :: n1 :: n0 :: body) with ([n2; n1; n0] ++ body).
  rewrite (take_app_n 3 [n2; n1; n0]) by reflexivity. cbn [bind].
  rewrite be_val_3, Hlen. unfold lenN at 1. rewrite N.eqb_refl. cbn [negb]. cbv iota.
  unfold body at 1.
  rewrite (take_app_n 2 [v1; v0]) by reflexivity. cbn [bind].
  rewrite (take_app_n 32 (h_random h)) by (symmetry; exact Hr). cbn [bind].
  rewrite take1_single. cbn [bind].
  rewrite (take_app_n _ (h_sid h)) by lia. cbn [bind].
  rewrite (take_app_n 2 [c1; c0]) by reflexivity. cbn [bind].
  rewrite (take_app_n _ (h_suites h)) by (rewrite be_val_2; lia). cbn [bind].
  rewrite take1_single. cbn [bind].
  rewrite (take_app_n _ (h_comps h)) by (rewrite Hc; reflexivity). cbn [bind].
  rewrite (take_app_n 2 [e1; e0]) by reflexivity. cbn [bind].
  unfold parseExtensions, parseExtensions_raw. rewrite Em. cbn [recover_as bind].
  fold (lenN body). reflexivity.
Qed.

Section Bridge.
  Variable dh : list N -> list N -> option (list N).

  Theorem server_parser_bridge : forall name l, wf_client_hello name l = true -> wf_bytes l ->
    forall pv, exists r s k,
      locate_fields l = Some (r, s, k) /\
      tls_first_packet dh l pv =
      match dh pv r with
      | None => Err EDH
      | Some ss => Ok (mkFrag (copy_into 32 ss) r (s ++ k))
      end.
  Proof.
    intros name l Hwf Hw pv. unfold wf_client_hello in Hwf.
    destruct (parse_client_hello l) as [h|] eqn:Eh; [|discriminate].
    destruct (wf_hello_inv name h Hwf) as (Lr & Ls & _ & k & Ek).
    destruct (parseClientHello_wf name l h Eh Hwf Hw) as (ch & d & post & Ech & Er & Es & Ea & Eg & Hwd).
    exists (h_random h), (h_sid h), k.
    split; [unfold locate_fields; rewrite Eh, Ek; reflexivity|].
    unfold tls_first_packet. rewrite Ech. cbn [bind]. unfold unmarshalClientHello.
    rewrite Er, Es, (copy_into_exact 32 (h_random h) Lr), Lr. cbn [Nat.eqb negb].
    destruct (dh pv (h_random h)) as [ss|]; [|reflexivity].
    rewrite Eg.
    unfold hello_share in Ek. rewrite Ea in Ek.
    rewrite (parseKeyShare_found d post k Ek Hwd). cbn [bind].
    destruct (x25519_share_inv d k Ek) as [Lk _].
    rewrite app_length, Ls, Lk. cbn [Nat.add Nat.eqb negb].
    rewrite (copy_into_exact 64) by (rewrite app_length, Ls, Lk; reflexivity). reflexivity.
  Qed.

  (* hence server_process_tls (which uses the locator) is the server's processFirstPacket + decryptClientInfo
     on every well-formed hello *)
  Theorem server_process_is_parser : forall open name l pv now, wf_client_hello name l = true -> wf_bytes l ->
    server_process_tls dh open l pv now =
    match tls_first_packet dh l pv with
    | Ok fr => decrypt_client_info open (f_shared fr) (f_rand fr) (f_ct fr) (firstn 32 (f_ct fr)) now
    | Err EDH => Reject RejDH
    | _ => Reject RejHello
    end.
  Proof.
    intros open name l pv now Hwf Hw.
    destruct (server_parser_bridge name l Hwf Hw pv) as (r & s & k & El & Ef).
    destruct (wf_hello_fields name l Hwf) as (r' & s' & k' & El' & _ & Lr & Ls & Lk & _).
    rewrite El in El'. inversion El'; subst r' s' k'.
    unfold server_process_tls. rewrite El, Ef.
    rewrite (fit_exact 32 r Lr).
    destruct (dh pv r) as [ss|]; [|reflexivity].
    rewrite app_length, Ls, Lk. cbn [Nat.add Nat.eqb negb f_shared f_rand f_ct].
    rewrite (fit_exact 64) by (rewrite app_length, Ls, Lk; reflexivity).
    rewrite firstn_app_exact by exact Ls.
    unfold fit, copy_into, zeros. reflexivity.
  Qed.
End Bridge.

Section AgreementFront.
  Variable dh : list N -> list N -> option (list N).
  Variable pub : list N -> list N.
  Variable seal : list N -> list N -> list N -> list N -> list N.
  Variable open : list N -> list N -> list N -> list N -> option (list N).
  Hypothesis dh_comm : forall a b, dh a (pub b) = dh b (pub a).
  Hypothesis pub_length : forall a, length (pub a) = 32%nat.
  Hypothesis open_seal : forall k n p a, open k n (seal k n p a) a = Some p.
  Hypothesis seal_length : forall k n p a, length (seal k n p a) = (length p + 16)%nat.

  Theorem agreement_tls_parser : forall name i ts s_now ephPv staticPv secret hello,
    info_in_domain i -> ts < 2 ^ 64 -> in_window ts s_now = true ->
    dh ephPv (pub staticPv) = Some secret ->
    let shared := fit 32 secret in
    let ct := seal shared (firstn 12 (pub ephPv)) (pack i ts) [] in
    wf_client_hello name hello = true -> wf_bytes hello ->
    locate_fields hello = Some (pub ephPv, sub 0 32 ct, sub 32 64 ct) ->
    tls_first_packet dh hello staticPv = Ok (mkFrag shared (pub ephPv) ct) /\
    decrypt_client_info open shared (pub ephPv) ct (sub 0 32 ct) s_now = Accept i shared (sub 0 32 ct).
  Proof.
    intros name i ts s_now ephPv staticPv secret hello Hd Ht Hw Hdh shared ct Hwf Hb Hloc.
    assert (Hu : length (i_uid i) = 16%nat) by apply Hd.
    destruct (client_payload_ok dh pub seal pub_length seal_length i ts ephPv staticPv secret Hu Hdh) as [_ Lct].
    fold shared in Lct. fold ct in Lct.
    split.
    - destruct (server_parser_bridge dh name hello Hwf Hb staticPv) as (r & s & k & El & Ef).
      rewrite Hloc in El. inversion El; subst r s k.
      rewrite Ef, dh_comm, Hdh. rewrite (sub_split 32 64) by (auto; lia). reflexivity.
    - unfold ct. apply decrypt_ok; assumption.
  Qed.
End AgreementFront.
