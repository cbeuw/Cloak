(* Proofs about Model/Config.v (property C20): ProcessRawConfig against the documented table, then
   the option-string front end ssvToJson against the JSON rendering. *)
From Coq Require Import String.
From Coq Require Import ZArith NArith List Bool Lia.
From Coq Require Import ZifyN ZifyNat ZifyBool.
From Cloak Require Import Model.Config.
Import ListNotations.
Local Open Scope Z_scope.

Lemma str_eqb_spec a : forall b, str_eqb a b = true <-> a = b.
Proof. induction a as [|x a IH]; intros [|y b]; cbn; try (split; congruence).
  rewrite andb_true_iff, N.eqb_eq, IH. split; [intros [-> ->]; reflexivity | intros H; inversion H; auto]. Qed.

Lemma enc_method_doc s : enc_method s = doc_encryption s.
Proof. unfold enc_method, doc_encryption. set (l := to_lower s).
  destruct (str_eqb l kw_plain), (str_eqb l kw_aes_gcm), (str_eqb l kw_aes_256_gcm),
    (str_eqb l kw_aes_128_gcm), (str_eqb l kw_chacha); reflexivity. Qed.

Lemma browser_doc s : browser_of s = doc_browser s.
Proof. unfold browser_of, doc_browser. set (l := to_lower s).
  destruct (str_eqb l kw_firefox) eqn:E1, (str_eqb l kw_safari) eqn:E2; try reflexivity.
  apply str_eqb_spec in E1. apply str_eqb_spec in E2. rewrite E1 in E2. discriminate. Qed.

Lemma wrap64_small z : - two63 <= z < two63 -> wrap64 z = z.
Proof. unfold wrap64, two63, two64. intros H.
  destruct (z mod 18446744073709551616 <? 9223372036854775808) eqn:E; Z.div_mod_to_equations; lia. Qed.
Lemma secs_small n : secs_ok n -> secs n = n * second_ns.
Proof. unfold secs_ok, secs, second_ns. intros H. apply wrap64_small. unfold two63. lia. Qed.

Lemma timeout_doc n : secs_ok n ->
  (if n =? 0 then wrap64 (300 * second_ns) else secs n)
  = (if n =? 0 then doc_default_stream_timeout_s else n) * second_ns.
Proof. intros H. destruct (n =? 0); [reflexivity|now apply secs_small]. Qed.
Lemma keepalive_doc n : secs_ok n ->
  (if n <=? 0 then -1 else secs n) = (if 0 <? n then n * second_ns else doc_keepalive_disabled).
Proof. intros H. destruct (Z.leb_spec n 0), (Z.ltb_spec 0 n); try lia; [reflexivity|now apply secs_small]. Qed.

Lemma transport_doc r :
  transport_of r =
  if doc_is_cdn (Transport r) then
    mkT kw_cdn (kw_ws ++ join_host_port (if is_empty (CDNOriginHost r) then RemoteHost r else CDNOriginHost r) (RemotePort r)
                ++ (if is_empty (CDNWsUrlPath r) then doc_default_ws_path else CDNWsUrlPath r)) 0
  else mkT kw_direct [] (doc_browser (BrowserSig r)).
Proof. unfold transport_of, doc_is_cdn. destruct (str_eqb (to_lower (Transport r)) kw_cdn).
  - destruct (is_empty (CDNOriginHost r)); reflexivity.
  - now rewrite browser_doc. Qed.

(* what ProcessRawConfig builds once every guard has been passed *)
Definition cfg (ka_fixed : bool) (r : raw) : local * remote * auth :=
  let single := NumConn r <=? 0 in
  (mkLocal (join_host_port (LocalHost r) (LocalPort r))
           (if StreamTimeout r =? 0 then wrap64 (300 * second_ns) else secs (StreamTimeout r))
           (filter_names (AlternativeNames r) ++ [ServerName r]),
   mkRemote single (if single then 1 else NumConn r)
            (if KeepAlive r <=? 0 then -1 else if ka_fixed then secs (KeepAlive r) else wrap64 (0 * second_ns))
            (join_host_port (RemoteHost r) (RemotePort r)) (transport_of r),
   mkAuth (UID r) 0 (ProxyMethod r) (match doc_encryption (EncryptionMethod r) with Some e => e | None => 0 end)
          (UDP r) (PublicKey r) (ServerName r)).

(* the guards of ProcessRawConfig, one after the other, are the documented completeness test *)
Lemma process_gen_cases ka r :
  if doc_complete r then process_gen ka r = ROk (cfg ka r) else exists e, process_gen ka r = RErr e.
Proof.
  unfold process_gen, doc_complete, cfg. rewrite enc_method_doc.
  destruct (is_empty (ServerName r)); [cbn [negb andb]; eauto|].
  destruct (is_empty (ProxyMethod r)); [cbn [negb andb]; eauto|].
  destruct (is_empty (UID r)); [cbn [negb andb]; eauto|].
  destruct (is_empty (PublicKey r)) eqn:Ep.
  { destruct (PublicKey r); [cbn [negb andb length Nat.eqb]; eauto|discriminate]. }
  destruct (Nat.eqb (length (PublicKey r)) 32); [|cbn [negb andb]; eauto].
  destruct (doc_encryption (EncryptionMethod r)); [|cbn [negb andb]; eauto].
  destruct (is_empty (RemoteHost r)); [cbn [negb andb]; eauto|].
  destruct (is_empty (RemotePort r)); [cbn [negb andb]; eauto|].
  destruct (is_empty (LocalHost r)); [cbn [negb andb]; eauto|].
  destruct (is_empty (LocalPort r)); [cbn [negb andb]; eauto|].
  reflexivity.
Qed.

Lemma process_gen_ok ka r x : process_gen ka r = ROk x -> x = cfg ka r.
Proof. intros H. pose proof (process_gen_cases ka r) as C. destruct (doc_complete r); [congruence|].
  destruct C as [e C]. congruence. Qed.

Lemma process_meets_spec r :
  secs_ok (KeepAlive r) -> secs_ok (StreamTimeout r) -> to_option (process r) = spec r.
Proof.
  intros Hk Hs. unfold process, spec. pose proof (process_gen_cases true r) as C.
  destruct (doc_complete r); [|destruct C as [e ->]; reflexivity].
  rewrite C. unfold cfg. now rewrite transport_doc, timeout_doc, keepalive_doc.
Qed.

(* the keep-alive period handed on for a positive KeepAlive: N seconds, whereas the line as it was
   before b378e52 (F9) yields 0 *)
Lemma process_gen_keepalive ka r x : 0 < KeepAlive r -> process_gen ka r = ROk x ->
  r_keepalive (snd (fst x)) = if ka then secs (KeepAlive r) else 0.
Proof.
  intros Hpos H. rewrite (process_gen_ok _ _ _ H). unfold cfg. cbn [fst snd r_keepalive].
  destruct (Z.leb_spec (KeepAlive r) 0); [lia|reflexivity].
Qed.

Lemma process_total r : (exists x, process r = ROk x) \/ (exists e, process r = RErr e).
Proof. destruct (process r); eauto. Qed.

(* rejection: exactly the incomplete configurations, each with an error value *)
Lemma rejects_iff r : (exists e, process r = RErr e) <-> doc_complete r = false.
Proof.
  unfold process. pose proof (process_gen_cases true r) as C. destruct (doc_complete r).
  - rewrite C. split; [intros [e H]|]; discriminate.
  - split; [reflexivity|intros _; exact C].
Qed.

Lemma rejects_each r :
  (ServerName r = [] -> process r = RErr (EEmpty FServerName)) /\
  (ServerName r <> [] -> ProxyMethod r = [] -> process r = RErr (EEmpty FServerName)) /\
  (UID r = [] -> exists e, process r = RErr e) /\
  (length (PublicKey r) <> 32%nat -> exists e, process r = RErr e) /\
  (doc_encryption (EncryptionMethod r) = None -> exists e, process r = RErr e) /\
  (RemoteHost r = [] -> exists e, process r = RErr e) /\
  (RemotePort r = [] -> exists e, process r = RErr e) /\
  (LocalHost r = [] -> exists e, process r = RErr e) /\
  (LocalPort r = [] -> exists e, process r = RErr e).
Proof.
  split. { intros H. unfold process, process_gen. now rewrite H. }
  split. { intros H1 H2. unfold process, process_gen. rewrite H2. destruct (ServerName r); [congruence|reflexivity]. }
  repeat split; intros H; apply rejects_iff; unfold doc_complete; rewrite ?H; cbn [is_empty negb andb];
    rewrite ?andb_false_r; try reflexivity.
  apply Nat.eqb_neq in H. rewrite H. now rewrite ?andb_false_r.
Qed.

Lemma replace2_cons_ne a b r x t : x <> a -> replace2 a b r (x :: t) = x :: replace2 a b r t.
Proof. intros H. destruct t as [|y t]; [reflexivity|]. cbn [replace2].
  destruct (N.eqb x a) eqn:E; [apply N.eqb_eq in E; contradiction|reflexivity]. Qed.
Lemma replace2_cons_ne2 a b r x y t : y <> b -> replace2 a b r (x :: y :: t) = x :: replace2 a b r (y :: t).
Proof. intros H. cbn [replace2].
  destruct (N.eqb y b) eqn:E; [apply N.eqb_eq in E; contradiction|]. now rewrite andb_false_r. Qed.
Lemma replace2_hit a b r t : replace2 a b r (a :: b :: t) = r :: replace2 a b r t.
Proof. cbn [replace2]. now rewrite !N.eqb_refl. Qed.

Lemma replace2_skip a b r s t : ~ In a s -> replace2 a b r (s ++ t) = s ++ replace2 a b r t.
Proof. induction s as [|x s IH]; intros H; [reflexivity|]. apply not_in_cons in H as [Hx H]. cbn [app].
  now rewrite replace2_cons_ne, IH by auto. Qed.

(* the replacements of unescape over an escaped value: the first leaves it alone (no two
   backslashes in a row), the second undoes the escaping *)
Lemma esc_eq_kept v t : ~ In c_bslash v ->
  replace2 c_bslash c_bslash c_bslash (esc_eq v ++ t) = esc_eq v ++ replace2 c_bslash c_bslash c_bslash t.
Proof. unfold esc_eq. induction v as [|ch v IH]; intros H; [reflexivity|]. apply not_in_cons in H as [Hch H].
  cbn [flat_map]. rewrite <- !app_assoc. destruct (N.eqb ch c_eq); cbn [app].
  - rewrite replace2_cons_ne2, replace2_cons_ne by discriminate. now rewrite IH.
  - now rewrite replace2_cons_ne, IH by auto. Qed.
Lemma esc_eq_undone v t : ~ In c_bslash v ->
  replace2 c_bslash c_eq c_eq (esc_eq v ++ t) = v ++ replace2 c_bslash c_eq c_eq t.
Proof. unfold esc_eq. induction v as [|ch v IH]; intros H; [reflexivity|]. apply not_in_cons in H as [Hch H].
  cbn [flat_map]. rewrite <- !app_assoc. destruct (N.eqb_spec ch c_eq) as [->|_]; cbn [app].
  - now rewrite replace2_hit, IH.
  - now rewrite replace2_cons_ne, IH by auto. Qed.

Lemma split_on_cons c s : exists seg rest, split_on c s = seg :: rest.
Proof. induction s as [|x s (seg & rest & IH)]; [cbn; eauto|]. cbn [split_on]. rewrite IH.
  destruct (N.eqb x c); eauto. Qed.
Lemma split_on_sep c s rest : ~ In c s -> split_on c (s ++ c :: rest) = s :: split_on c rest.
Proof. induction s as [|x s IH]; intros H; cbn [app split_on].
  - destruct (split_on_cons c rest) as (seg & r & E). rewrite E. now rewrite N.eqb_refl.
  - apply not_in_cons in H as [Hx H]. rewrite IH by exact H. destruct (N.eqb_spec x c); [congruence|reflexivity]. Qed.
Lemma split_on_none c s : ~ In c s -> split_on c s = [s].
Proof. induction s as [|x s IH]; intros H; [reflexivity|]. apply not_in_cons in H as [Hx H]. cbn [split_on].
  rewrite IH by exact H. destruct (N.eqb_spec x c); [congruence|reflexivity]. Qed.

Lemma split_segments c segs : (forall s, In s segs -> ~ In c s) ->
  split_on c (concat (map (fun s => s ++ [c]) segs)) = segs ++ [[]].
Proof. induction segs as [|s segs IH]; intros H; [reflexivity|]. cbn [map concat].
  rewrite <- app_assoc. cbn [app]. rewrite split_on_sep by (apply H; now left).
  rewrite IH by (intros s' Hs'; apply H; now right). reflexivity. Qed.

Lemma join_with_cons2 c x y l : join_with c (x :: y :: l) = x ++ c :: join_with c (y :: l).
Proof. reflexivity. Qed.
Lemma split_join c l : l <> [] -> (forall s, In s l -> ~ In c s) -> split_on c (join_with c l) = l.
Proof. induction l as [|x l IH]; intros Hne H; [congruence|]. destruct l as [|y l].
  - cbn [join_with]. apply split_on_none. apply H. now left.
  - rewrite join_with_cons2. rewrite split_on_sep by (apply H; now left). f_equal. apply IH; [discriminate|].
    intros s Hs. apply H. now right. Qed.

Lemma split_first_key c k v : ~ In c k -> split_first c (k ++ c :: v) = Some (k, v).
Proof. induction k as [|x k IH]; intros H; cbn [app split_first]; [now rewrite N.eqb_refl|].
  apply not_in_cons in H as [Hx H]. destruct (N.eqb_spec x c); [congruence|]. now rewrite IH. Qed.

Lemma contains_byte_iff c s : contains_byte c s = true <-> In c s.
Proof. unfold contains_byte. rewrite existsb_exists. split.
  - intros (x & Hin & E). apply N.eqb_eq in E. now subst.
  - intros H. exists c. split; [exact H|apply N.eqb_refl]. Qed.
Lemma contains_byte_false c s : contains_byte c s = false <-> ~ In c s.
Proof. rewrite <- contains_byte_iff. destruct (contains_byte c s); split; congruence. Qed.

Lemma ok_str_in s ch : ok_str s = true -> In ch s ->
  ch <> c_semi /\ ch <> c_quote /\ ch <> c_bslash /\ (32 <= ch)%N.
Proof. unfold ok_str. rewrite forallb_forall. intros H Hin. specialize (H _ Hin). unfold ok_char in H.
  rewrite !andb_true_iff, !negb_true_iff, !N.eqb_neq, N.leb_le in H. tauto. Qed.
Lemma ok_str_no c s : ok_str s = true -> (c = c_semi \/ c = c_bslash \/ c = c_quote) -> ~ In c s.
Proof. intros H Hc Hin. destruct (ok_str_in _ _ H Hin) as (A & B & C & _). destruct Hc as [->| [->| ->]]; congruence. Qed.
Lemma ok_str_plain s : ok_str s = true -> json_plain_body s = true.
Proof. unfold ok_str, json_plain_body. rewrite !forallb_forall. intros H ch Hin. specialize (H _ Hin).
  unfold ok_char in H. rewrite !andb_true_iff in *. tauto. Qed.

Lemma in_join c l x : In x (join_with c l) -> x = c \/ exists s, In s l /\ In x s.
Proof. induction l as [|a l IH]; [intros []|]. destruct l as [|b l].
  - cbn. intros H. right. exists a. split; [now left|exact H].
  - rewrite join_with_cons2.
    rewrite in_app_iff. intros [H|[H|H]].
    + right. exists a. split; [now left|exact H].
    + now left.
    + destruct (IH H) as [->|(s & Hs & Hx)]; [now left|]. right. exists s. split; [now right|exact Hx]. Qed.

Lemma unquoted_not_alt k : is_unquoted k = true -> has_prefix kw_AlternativeNames k = false.
Proof. unfold is_unquoted. rewrite !orb_true_iff, !str_eqb_spec. intros [[[->| ->]| ->]| ->]; reflexivity. Qed.

(* the segment `key=value` that one rendered option is once unescape has run *)
Definition seg_of (o : option_) : str := fst o ++ c_eq :: oval_text (snd o).

(* the guard, read as propositions *)
Definition ok_value (k : str) (v : oval) : Prop :=
  match v with
  | VStr s => ok_str s = true /\ has_prefix kw_AlternativeNames k = false /\ is_unquoted k = false
  | VLit s => ok_str s = true /\ is_unquoted k = true
  | VList l => has_prefix kw_AlternativeNames k = true /\ l <> [] /\
               forall n, In n l -> ok_str n = true /\ ~ In c_comma n
  end.
Lemma ok_option_spec o : ok_option o = true ->
  ok_str (fst o) = true /\ fst o <> [] /\ ~ In c_eq (fst o) /\ ok_value (fst o) (snd o).
Proof. unfold ok_option, ok_key. rewrite !andb_true_iff, !negb_true_iff, contains_byte_false.
  intros [[[Hk Hne] Heq] Hv]. repeat split; [exact Hk|now destruct (fst o)|exact Heq|].
  destruct (snd o) as [s|s|l]; cbn [ok_value]; rewrite ?andb_true_iff, ?negb_true_iff in Hv; [tauto..|].
  destruct Hv as [[H1 H2] H3]. rewrite forallb_forall in H3. repeat split; [exact H1|now destruct l|..];
    apply H3 in H; rewrite andb_true_iff, negb_true_iff, contains_byte_false in H; tauto. Qed.

Lemma oval_text_ok o ch : ok_option o = true -> In ch (oval_text (snd o)) -> ch <> c_semi /\ ch <> c_bslash.
Proof. intros H Hin. destruct (ok_option_spec o H) as (_ & _ & _ & Hv).
  assert (G : forall s, ok_str s = true -> In ch s -> ch <> c_semi /\ ch <> c_bslash)
    by (intros s Hs Hi; destruct (ok_str_in _ _ Hs Hi); tauto).
  destruct (snd o) as [s|s|l]; cbn [oval_text ok_value] in *; [apply (G s); tauto..|].
  destruct (in_join _ _ _ Hin) as [->|(s & Hs & Hx)]; [split; discriminate|]. apply (G s); [apply Hv|]; assumption. Qed.
Lemma key_ok o : ok_option o = true ->
  fst o <> [] /\ ~ In c_eq (fst o) /\ ~ In c_semi (fst o) /\ ~ In c_bslash (fst o).
Proof. intros H. destruct (ok_option_spec o H) as (Hk & Hne & Heq & _).
  repeat split; try assumption; apply (ok_str_no _ _ Hk); auto. Qed.

Lemma seg_clean o ch : ok_option o = true -> In ch (seg_of o) -> ch <> c_semi /\ ch <> c_bslash.
Proof. intros H Hin. unfold seg_of in Hin. rewrite in_app_iff in Hin. destruct Hin as [Hin|[<-|Hin]].
  - destruct (key_ok o H) as (_ & _ & A & B). split; intros ->; contradiction.
  - split; discriminate.
  - exact (oval_text_ok o ch H Hin). Qed.

(* unescape over one rendered option: key and separators pass unchanged, the value loses its escaping.
   unescape is three replace2 passes; the three rewrite lines below are these passes, innermost first
   (`\\`, `\=`, `\;`): the first keeps the escaped `=`, the second undoes it, the third finds nothing. *)
Lemma unescape_option o t : ok_option o = true ->
  unescape (render_option o ++ t) = seg_of o ++ c_semi :: unescape t.
Proof.
  intros H. assert (Hs : ~ In c_bslash (seg_of o)) by (intros Hin; now destruct (seg_clean o _ H Hin)).
  assert (Hk : ~ In c_bslash (fst o)) by (intros Hin; apply Hs, in_or_app; now left).
  assert (Hv : ~ In c_bslash (oval_text (snd o))) by (intros Hin; apply Hs, in_or_app; now do 2 right).
  unfold unescape, render_option. rewrite <- !app_assoc. cbn [app]. rewrite <- app_assoc. cbn [app].
  rewrite replace2_skip, replace2_cons_ne, esc_eq_kept, replace2_cons_ne by (exact Hk || exact Hv || discriminate).
  rewrite replace2_skip, replace2_cons_ne, esc_eq_undone, replace2_cons_ne by (exact Hk || exact Hv || discriminate).
  rewrite replace2_skip, replace2_cons_ne, replace2_skip, replace2_cons_ne by (exact Hk || exact Hv || discriminate).
  unfold seg_of. now rewrite <- app_assoc.
Qed.

Lemma unescape_render c : forallb ok_option c = true ->
  unescape (render_ssv c) = concat (map (fun s => s ++ [c_semi]) (map seg_of c)).
Proof. unfold render_ssv. induction c as [|o c IH]; cbn [forallb map concat]; [reflexivity|].
  rewrite andb_true_iff. intros [H1 H2]. rewrite unescape_option, IH by assumption. now rewrite <- app_assoc. Qed.

Lemma token_of_rendered o : ok_option o = true -> token_of (fst o) (oval_text (snd o)) = tok_of_option o.
Proof.
  intros H. destruct (ok_option_spec o H) as (_ & _ & _ & Hv). unfold token_of, tok_of_option.
  destruct (snd o) as [s|s|l]; cbn [oval_text ok_value] in *.
  - destruct Hv as (_ & -> & ->). reflexivity.
  - destruct Hv as (_ & Hu). now rewrite (unquoted_not_alt _ Hu), Hu.
  - destruct Hv as (-> & Hne & Hl). assert (Hnc : forall s, In s l -> ~ In c_comma s) by (intros s Hs; now apply Hl).
    destruct l as [|a [|b l]]; [contradiction| |].
    + cbn [join_with]. now rewrite (proj2 (contains_byte_false _ _) (Hnc a (or_introl eq_refl))).
    + assert (E : contains_byte c_comma (join_with c_comma (a :: b :: l)) = true).
      { apply contains_byte_iff. rewrite join_with_cons2. apply in_or_app. right. now left. }
      rewrite E. rewrite split_join; [reflexivity|discriminate|exact Hnc].
Qed.

Lemma tokens_of_rendered c : forallb ok_option c = true ->
  tokens_of_segments (map seg_of c ++ [[]]) = json_members c.
Proof. induction c as [|o c IH]; cbn [forallb map app tokens_of_segments json_members]; [reflexivity|].
  rewrite andb_true_iff. intros [H1 H2]. destruct (key_ok o H1) as (Hne & Heq & _ & _).
  unfold seg_of at 1 2. destruct (fst o) as [|x k] eqn:Ek; [congruence|]. cbn [app is_empty].
  change (x :: k ++ c_eq :: oval_text (snd o)) with ((x :: k) ++ c_eq :: oval_text (snd o)).
  rewrite <- Ek in *. rewrite split_first_key by exact Heq. rewrite token_of_rendered by exact H1.
  fold (json_members c). now rewrite <- IH. Qed.

Lemma ssv_equiv c : forallb ok_option c = true -> ssv_tokens (render_ssv c) = json_members c.
Proof.
  intros H. unfold ssv_tokens. rewrite unescape_render by exact H.
  rewrite split_segments; [now apply tokens_of_rendered|].
  intros s Hs. apply in_map_iff in Hs. destruct Hs as (o & <- & Ho). rewrite forallb_forall in H.
  intros Hin. now destruct (seg_clean o _ (H o Ho) Hin).
Qed.

Lemma ssv_to_json_text s : ssv_to_json s = json_text (ssv_tokens s).
Proof. reflexivity. Qed.

(* under the guard every string body written between quotes is a plain JSON string literal *)
Lemma guard_gives_plain_bodies o : ok_option o = true ->
  match snd o with
  | VStr s => json_plain_body s = true
  | VLit _ => True
  | VList l => forall n, In n l -> json_plain_body n = true
  end /\ json_plain_body (fst o) = true.
Proof. intros H. destruct (ok_option_spec o H) as (Hk & _ & _ & Hv). split; [|now apply ok_str_plain].
  destruct (snd o); cbn [ok_value] in Hv; [apply ok_str_plain; tauto|exact I|].
  intros n Hn. now apply ok_str_plain, Hv. Qed.

(* the guard is the boundary: one counter-example per excluded character *)
Definition k_ServerName : str := Eval compute in bytes_of "ServerName".
Definition cx_semicolon : list option_ := [(k_ServerName, VStr [97%N; 59%N; 98%N])].            (* a;b *)
Definition cx_backslash : list option_ := [(k_ServerName, VStr [97%N; 92%N])].                (* a\  *)
Definition cx_two_backslashes : list option_ := [(k_ServerName, VStr [97%N; 92%N; 92%N; 98%N])].  (* a\\b *)
Definition cx_comma : list option_ := [(kw_AlternativeNames, VList [[97%N; 44%N; 98%N]])].      (* one name: a,b *)
Definition cx_empty_list : list option_ := [(kw_AlternativeNames, VList [])].
Definition cx_quote : list option_ := [(k_ServerName, VStr [97%N; 34%N; 98%N])].                (* a, quote, b *)
Definition cx_control : list option_ := [(k_ServerName, VStr [97%N; 10%N; 98%N])].              (* a<LF>b *)

Lemma cx_breaks :
  ssv_tokens (render_ssv cx_semicolon) <> json_members cx_semicolon /\
  ssv_tokens (render_ssv cx_backslash) <> json_members cx_backslash /\
  ssv_tokens (render_ssv cx_two_backslashes) <> json_members cx_two_backslashes /\
  ssv_tokens (render_ssv cx_comma) <> json_members cx_comma /\
  ssv_tokens (render_ssv cx_empty_list) <> json_members cx_empty_list.
Proof. repeat split; vm_compute; discriminate. Qed.

(* a quote or a control character survives to the member list but the text between the quotes
   is then no JSON string literal for it (what encoding/json makes of that text is outside the model) *)
Lemma cx_text_level :
  (ssv_tokens (render_ssv cx_quote) = json_members cx_quote /\ json_plain_body [97%N; 34%N; 98%N] = false) /\
  (ssv_tokens (render_ssv cx_control) = json_members cx_control /\ json_plain_body [97%N; 10%N; 98%N] = false).
Proof. repeat split; vm_compute; reflexivity. Qed.

(* base64 padding: the '=' written as \= by plugin hosts comes back as '=' *)
Definition k_UID : str := Eval compute in bytes_of "UID".
Definition ex_b64 : list option_ :=
  [(k_UID, VStr (bytes_of "iGAO85zysIyR4c09CyZSLQ=="));
   (kw_NumConn, VLit (bytes_of "4"));
   (kw_AlternativeNames, VList [bytes_of "a.com"; []; bytes_of "b.com"])].
Lemma ex_guard : forallb ok_option ex_b64 = true
  /\ render_ssv ex_b64 = bytes_of "UID=iGAO85zysIyR4c09CyZSLQ\=\=;NumConn=4;AlternativeNames=a.com,,b.com;"
  /\ ssv_to_json (render_ssv ex_b64)
     = bytes_of "{""UID"":""iGAO85zysIyR4c09CyZSLQ=="",""NumConn"":4,""AlternativeNames"":[""a.com"","""",""b.com""]}".
Proof. repeat split; vm_compute; reflexivity. Qed.

(* non-vacuity of the processed-configuration theorems *)
Definition ex_raw : raw :=
  mkRaw (bytes_of "www.bing.com") (bytes_of "shadowsocks") (bytes_of "AES-GCM") (bytes_of "0123456789abcdef")
        (bytes_of "0123456789abcdef0123456789abcdef") 4 (bytes_of "127.0.0.1") (bytes_of "1984")
        (bytes_of "1.2.3.4") (bytes_of "443") [bytes_of "a.com"; []] false [] (bytes_of "CDN") [] [] 0 30.
Lemma ex_raw_ok : secs_ok (KeepAlive ex_raw) /\ secs_ok (StreamTimeout ex_raw) /\ doc_complete ex_raw = true
  /\ exists x, process ex_raw = ROk x /\ r_keepalive (snd (fst x)) = 30 * second_ns
     /\ l_timeout (fst (fst x)) = 300 * second_ns /\ r_singleplex (snd (fst x)) = false
     /\ t_wsurl (r_transport (snd (fst x))) = bytes_of "ws://1.2.3.4:443/".
Proof. split; [unfold secs_ok; cbn; lia|]. split; [unfold secs_ok; cbn; lia|]. split; [vm_compute; reflexivity|].
  eexists. split; [vm_compute; reflexivity|]. repeat split; vm_compute; reflexivity. Qed.

(* the boundary of [secs_ok]: beyond about 292 years the multiplication wraps (edge of the
   statement, not a finding) *)
Lemma secs_wraps : secs 9223372037 < 0.
Proof. vm_compute. reflexivity. Qed.
