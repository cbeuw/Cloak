(* Proofs about the token bucket model (Model/Bucket.v) - property C19.
   Everything about request sequences is read off two functions of the state between two requests:
   [rel], the tick in which the last request is released, and [bal], the tokens at a given tick if
   nothing else is requested.  One request lowers the balance at every tick by at least its count
   ([bal_take]); the bounds follow by induction along the run.  [released_upto] bounds what is released up to a
   tick by the balance there, [bound_ticks] adds a lower end to the window, [ledger] bounds what has been
   REQUESTED up to a request by the refill at its release: since releases are in request order ([rel_mono])
   this is the same accounting read at one request instead of at one tick, proved by its own induction
   because it follows the cumulative count instead of a window. *)
From Coq Require Import ZArith List Bool Lia.
From Coq Require Import ZifyBool.
From Cloak Require Import Gen.Consts Model.Bucket.
Import ListNotations.
Local Open Scope Z_scope.

(* what NewBucketWithQuantum accepts *)
Definition wf (p : params) : Prop := 0 < capacity p /\ 0 < quantum p /\ 0 < fillInterval p.

Lemma tick_bounds : forall F t, 0 < F -> F * (t / F) <= t < F * (t / F) + F.
Proof.
  intros F t HF. pose proof (Z.div_mod t F ltac:(lia)). pose proof (Z.mod_pos_bound t F HF). lia.
Qed.

Lemma ceil_bounds : forall x q, 0 < q -> let k := (x + q - 1) / q in x <= q * k /\ q * k < x + q.
Proof. intros x q Hq k. pose proof (tick_bounds q (x + q - 1) Hq). subst k. lia. Qed.

(* where the last request is released, read off the state it leaves: its tick if it was served at
   once, else the end tick computed by take *)
Definition rel (p : params) (st : bstate) : Z :=
  ltick st + (if avail st <? 0 then (- avail st + quantum p - 1) / quantum p else 0).

(* tokens in the bucket at tick R if nothing else is requested (no cap applied) *)
Definition bal (p : params) (st : bstate) (R : Z) : Z := avail st + (R - ltick st) * quantum p.

Lemma rel_served : forall p st, 0 <= avail st -> rel p st = ltick st.
Proof. intros p st H. unfold rel. destruct (avail st <? 0) eqn:E; lia. Qed.

Lemma rel_waits : forall p st, 0 < quantum p -> avail st < 0 ->
  ltick st < rel p st /\ 0 <= bal p st (rel p st) < quantum p.
Proof.
  intros p st Hq H. unfold rel, bal. destruct (avail st <? 0) eqn:E; [|lia].
  destruct (ceil_bounds (- avail st) (quantum p) Hq) as [C1 C2].
  set (k := (- avail st + quantum p - 1) / quantum p) in *. clearbody k. nia.
Qed.

Lemma rel_ge : forall p st, 0 < quantum p -> ltick st <= rel p st.
Proof.
  intros p st Hq. destruct (Z.lt_ge_cases (avail st) 0) as [H|H].
  - apply Z.lt_le_incl, (rel_waits p st Hq H).
  - rewrite (rel_served p st H). reflexivity.
Qed.

(* the release tick is the first tick from ltick on at which the balance is not negative *)
Lemma bal_nonneg : forall p st R, 0 < quantum p -> rel p st <= R -> 0 <= bal p st R.
Proof.
  intros p st R Hq HR. destruct (Z.lt_ge_cases (avail st) 0) as [H|H].
  - destruct (rel_waits p st Hq H) as (_ & H0 & _). unfold bal in *. nia.
  - rewrite (rel_served p st H) in HR. unfold bal. nia.
Qed.

Lemma rel_least : forall p st R, 0 < quantum p -> ltick st <= R -> 0 <= bal p st R -> rel p st <= R.
Proof.
  intros p st R Hq HR HB. destruct (Z.lt_ge_cases (avail st) 0) as [H|H].
  - destruct (rel_waits p st Hq H) as (_ & _ & H1). unfold bal in *. nia.
  - rewrite (rel_served p st H). exact HR.
Qed.

Lemma take_nonpos : forall p st now c, c <= 0 -> take p st now c = (st, 0).
Proof. intros p st now c Hc. unfold take, take_max. destruct (c <=? 0) eqn:E; [reflexivity | lia]. Qed.

Lemma take_eq : forall p st now c, 0 < c ->
  take p st now c =
  let st' := mkB (avail (adjust p st (now / fillInterval p)) - c) (now / fillInterval p) in
  (st', if avail st' <? 0 then rel p st' * fillInterval p - now else 0).
Proof.
  intros p st now c Hc. unfold take, take_max, tick_of, rel. cbv zeta. cbn [avail ltick].
  destruct (c <=? 0) eqn:E; [lia|].
  destruct (0 <=? avail (adjust p st (now / fillInterval p)) - c) eqn:E1.
  - assert (avail (adjust p st (now / fillInterval p)) - c <? 0 = false) as -> by lia. reflexivity.
  - assert (avail (adjust p st (now / fillInterval p)) - c <? 0 = true) as -> by lia. reflexivity.
Qed.

Lemma adjust_le_cap : forall p st T, avail st <= capacity p -> avail (adjust p st T) <= capacity p.
Proof.
  intros p st T H. unfold adjust. destruct (capacity p <=? avail st) eqn:E; cbn [avail]; [lia|].
  destruct (capacity p <? avail st + (T - ltick st) * quantum p) eqn:E2; lia.
Qed.

Lemma adjust_uncapped : forall p st T, wf p -> avail st <= capacity p -> ltick st <= T ->
  avail (adjust p st T) <= avail st + (T - ltick st) * quantum p.
Proof.
  intros p st T (Hc & Hq & HF) H HT. unfold adjust.
  destruct (capacity p <=? avail st) eqn:E; cbn [avail]; [nia|].
  destruct (capacity p <? avail st + (T - ltick st) * quantum p) eqn:E2; lia.
Qed.

Lemma adjust_ltick : forall p st T, ltick (adjust p st T) = T.
Proof. intros. unfold adjust. destruct (capacity p <=? avail st); reflexivity. Qed.

Lemma take_ltick : forall p st now c, 0 < c -> ltick (fst (take p st now c)) = now / fillInterval p.
Proof. intros p st now c Hc. rewrite take_eq by exact Hc. reflexivity. Qed.

Lemma take_release : forall p st now c, wf p -> 0 < c ->
  0 <= snd (take p st now c) /\
  (now + snd (take p st now c)) / fillInterval p = rel p (fst (take p st now c)).
Proof.
  intros p st now c (_ & Hq & HF) Hc. rewrite take_eq by exact Hc. cbv zeta. cbn [fst snd].
  set (st' := mkB _ _). assert (El : ltick st' = now / fillInterval p) by reflexivity.
  destruct (avail st' <? 0) eqn:E.
  - destruct (rel_waits p st' Hq ltac:(lia)) as [HR _]. rewrite El in HR.
    pose proof (tick_bounds (fillInterval p) now HF).
    split; [nia|]. rewrite Zplus_minus. apply Z.div_mul. lia.
  - rewrite Z.add_0_r, rel_served, El by lia. split; [lia | reflexivity].
Qed.

(* what the inductions along a run carry: the state before a request made at or after time lb *)
Definition ok (p : params) (st : bstate) (lb : Z) : Prop :=
  avail st <= capacity p /\ ltick st <= lb / fillInterval p.

Lemma ok_binit : forall p, ok p (binit p) 0.
Proof. intro p. unfold ok. cbn [binit avail ltick]. rewrite Zdiv_0_l. lia. Qed.

Lemma ok_tick : forall p st lb t, wf p -> ok p st lb -> lb <= t -> ltick st <= t / fillInterval p.
Proof.
  intros p st lb t (_ & _ & HF) [_ HL] Ht.
  etransitivity; [exact HL | apply Z.div_le_mono; assumption].
Qed.

Lemma take_le_cap : forall p st lb t c, ok p st lb -> 0 < c ->
  avail (fst (take p st t c)) + c <= capacity p.
Proof.
  intros p st lb t c [Hcap _] Hc. rewrite take_eq by exact Hc. cbn [fst avail].
  pose proof (adjust_le_cap p st (t / fillInterval p) Hcap). lia.
Qed.

Lemma ok_take : forall p st lb t c, ok p st lb -> 0 < c -> ok p (fst (take p st t c)) t.
Proof.
  intros p st lb t c Hok Hc. split.
  - pose proof (take_le_cap p st lb t c Hok Hc). lia.
  - rewrite take_ltick by exact Hc. reflexivity.
Qed.

(* a request costs its count at every tick: adjust never adds more than one quantum per tick *)
Lemma bal_take : forall p st lb t c R, wf p -> ok p st lb -> lb <= t -> 0 < c ->
  bal p (fst (take p st t c)) R <= bal p st R - c.
Proof.
  intros p st lb t c R Hwf Hok Ht Hc.
  pose proof (adjust_uncapped p st (t / fillInterval p) Hwf (proj1 Hok) (ok_tick p st lb t Hwf Hok Ht)) as Hun.
  rewrite take_eq by exact Hc. unfold bal. cbn [fst avail ltick]. lia.
Qed.

(* Release ticks follow the order of the requests.  At its own release tick the new state's balance is not
   negative; the old state's balance there is larger by at least c ([bal_take]); and [rel] of the old state is the
   least tick with a non-negative balance. *)
Lemma rel_mono : forall p st lb t c, wf p -> ok p st lb -> lb <= t -> 0 < c ->
  rel p st <= rel p (fst (take p st t c)).
Proof.
  intros p st lb t c Hwf Hok Ht Hc. assert (Hq : 0 < quantum p) by apply Hwf.
  pose proof (bal_take p st lb t c (rel p (fst (take p st t c))) Hwf Hok Ht Hc) as Hb.
  pose proof (bal_nonneg p (fst (take p st t c)) _ Hq (Z.le_refl _)) as H0.
  pose proof (rel_ge p (fst (take p st t c)) Hq) as HR. rewrite take_ltick in HR by exact Hc.
  pose proof (ok_tick p st lb t Hwf Hok Ht) as HL.
  apply rel_least; [exact Hq | lia | lia].
Qed.

Fixpoint sorted_from (lb : Z) (reqs : list (Z * Z)) : Prop :=
  match reqs with
  | [] => True
  | (t, c) :: r => lb <= t /\ sorted_from t r
  end.

Definition counts_in (m : Z) (reqs : list (Z * Z)) : Prop := Forall (fun tc => 0 < snd tc <= m) reqs.

Lemma counts_in_pos : forall m reqs, counts_in m reqs -> Forall (fun tc => 0 < snd tc) reqs.
Proof. intros m reqs. apply Forall_impl. intros tc H. exact (proj1 H). Qed.

Fixpoint sum_if (P : Z -> bool) (out : list (Z * Z)) : Z :=
  match out with
  | [] => 0
  | (r, c) :: o => (if P r then c else 0) + sum_if P o
  end.

Lemma released_sum_if : forall s e out, released s e out = sum_if (fun r => (s <=? r) && (r <=? e)) out.
Proof. induction out as [|[r c] o IH]; cbn [released sum_if]; [reflexivity | now rewrite IH]. Qed.

Lemma sum_if_nonneg : forall (P : Z -> bool) out, Forall (fun rc => 0 <= snd rc) out -> 0 <= sum_if P out.
Proof. induction 1 as [|[r c] o H _ IH]; cbn [sum_if]; [lia|]. cbn [snd] in H. destruct (P r); lia. Qed.

(* Below P selects release times, all of them in ticks up to b (from a on, in bound_ticks): the time
   window of [released] is such a P, and so is a window of ticks. *)
Lemma run_after : forall p (P : Z -> bool) b reqs st lb, wf p ->
  (forall r, P r = true -> r / fillInterval p <= b) ->
  ok p st lb -> sorted_from lb reqs -> Forall (fun tc => 0 < snd tc) reqs ->
  b < rel p st -> sum_if P (run p st reqs) = 0.
Proof.
  intros p P b reqs st lb Hwf HP. revert st lb.
  induction reqs as [|[t c] r IH]; intros st lb Hok Hs Hpos Hb; cbn [run]; [reflexivity|].
  destruct Hs as [Ht Hs]. inversion Hpos as [|x l Hc Hpos']; subst x l. cbn [snd] in Hc.
  pose proof (rel_mono p st lb t c Hwf Hok Ht Hc) as Hm.
  pose proof (take_release p st t c Hwf Hc) as [_ Hr].
  pose proof (ok_take p st lb t c Hok Hc) as Hok'.
  destruct (take p st t c) as [st' w]. cbn [fst snd] in *. cbn [sum_if].
  rewrite (IH st' t Hok' Hs Hpos' ltac:(lia)).
  destruct (P (t + w)) eqn:E; [|reflexivity]. apply HP in E. lia.
Qed.

(* accounting: what a run releases up to tick b, if the request before it is released by then, is
   paid for by the balance its starting state has at b *)
Lemma released_upto : forall p (P : Z -> bool) b reqs st lb, wf p ->
  (forall r, P r = true -> r / fillInterval p <= b) ->
  ok p st lb -> sorted_from lb reqs -> Forall (fun tc => 0 < snd tc) reqs ->
  rel p st <= b -> sum_if P (run p st reqs) <= bal p st b.
Proof.
  intros p P b reqs st lb Hwf HP. assert (Hq : 0 < quantum p) by apply Hwf. revert st lb.
  induction reqs as [|[t c] r IH]; intros st lb Hok Hs Hpos Hb; cbn [run].
  - apply bal_nonneg; assumption.
  - destruct Hs as [Ht Hs]. inversion Hpos as [|x l Hc Hpos']; subst x l. cbn [snd] in Hc.
    pose proof (bal_take p st lb t c b Hwf Hok Ht Hc) as Hbal.
    pose proof (ok_take p st lb t c Hok Hc) as Hok'.
    destruct (Z.le_gt_cases (rel p (fst (take p st t c))) b) as [Hin|Hout].
    + specialize (IH _ t Hok' Hs Hpos' Hin).
      destruct (take p st t c) as [st' w]. cbn [fst] in *. cbn [sum_if]. destruct (P (t + w)); lia.
    + (* this request is released after b: so is everything behind it *)
      pose proof (run_after p P b r _ t Hwf HP Hok' Hs Hpos' Hout) as Z0.
      pose proof (take_release p st t c Hwf Hc) as [_ Hr].
      pose proof (bal_nonneg p st b Hq Hb).
      destruct (take p st t c) as [st' w]. cbn [fst snd] in *. cbn [sum_if]. rewrite Z0.
      destruct (P (t + w)) eqn:E; [apply HP in E|]; lia.
Qed.

Lemma bound_ticks : forall p (P : Z -> bool) a b m reqs st lb, wf p -> a <= b ->
  (forall r, P r = true -> a <= r / fillInterval p <= b) ->
  ok p st lb -> sorted_from lb reqs -> counts_in m reqs ->
  sum_if P (run p st reqs) <= quantum p * (b - a + 1) + Z.max (capacity p) m.
Proof.
  intros p P a b m reqs st lb Hwf Hab HP. assert (Hq : 0 < quantum p) by apply Hwf.
  assert (Hc0 : 0 < capacity p) by apply Hwf. revert st lb.
  induction reqs as [|[t c] r IH]; intros st lb Hok Hs Hm; cbn [run sum_if]; [nia|].
  destruct Hs as [Ht Hs]. inversion Hm as [|x l [Hc Hcm] Hm']; subst x l. cbn [snd] in Hc, Hcm.
  pose proof (ok_take p st lb t c Hok Hc) as Hok1.
  pose proof (take_le_cap p st lb t c Hok Hc) as Hcap1.
  pose proof (take_release p st t c Hwf Hc) as [_ Hr].
  destruct (take p st t c) as [st1 w]. cbn [fst snd] in *. cbn [sum_if].
  destruct (Z.lt_ge_cases (rel p st1) a) as [Hlt|Hge].
  - (* released before the window: not counted *)
    specialize (IH st1 t Hok1 Hs Hm'). destruct (P (t + w)) eqn:E; [apply HP in E|]; lia.
  - destruct (Z.lt_ge_cases b (rel p st1)) as [Hout|Hin].
    + (* released after the window, and so is everything behind it *)
      rewrite (run_after p P b r st1 t Hwf (fun r H => proj2 (HP r H)) Hok1 Hs (counts_in_pos m r Hm') Hout).
      destruct (P (t + w)) eqn:E; [apply HP in E; lia | nia].
    + (* the first request released in the window *)
      pose proof (released_upto p P b r st1 t Hwf (fun r H => proj2 (HP r H)) Hok1 Hs (counts_in_pos m r Hm') Hin) as Hacc.
      assert (Hhd : (if P (t + w) then c else 0) <= c) by (destruct (P (t + w)); lia).
      assert (P1 : 0 <= (rel p st1 - a) * quantum p) by (apply Z.mul_nonneg_nonneg; lia).
      unfold bal in Hacc. destruct (Z.lt_ge_cases (avail st1) 0) as [Hwt|Hi].
      * (* it waited into the window: the balance at its release is below one quantum *)
        destruct (rel_waits p st1 Hq Hwt) as (_ & _ & Hb). unfold bal in Hb. lia.
      * (* it was served on arrival: at most a full bucket plus the refill *)
        rewrite (rel_served p st1 Hi) in *. lia.
Qed.

Theorem bound : forall p reqs s e m, wf p -> 0 <= s <= e ->
  sorted_from 0 reqs -> counts_in m reqs ->
  released s e (run p (binit p) reqs)
  <= quantum p * (e / fillInterval p - s / fillInterval p + 1) + Z.max (capacity p) m.
Proof.
  intros p reqs s e m Hwf Hse Hs Hm.
  assert (HF : 0 < fillInterval p) by apply Hwf.
  rewrite released_sum_if.
  apply (bound_ticks p _ _ _ m reqs (binit p) 0 Hwf); [| | apply ok_binit | exact Hs | exact Hm].
  - apply Z.div_le_mono; lia.
  - intros r H. apply andb_true_iff in H. split; apply Z.div_le_mono; lia.
Qed.

(* everything released up to time e, counted from the creation of the bucket, is covered by the initial
   content and the refill: NO term for the largest message here - for intervals that begin when the
   valve is made the property's literal bound holds, whatever the message sizes *)
Theorem from_start : forall p reqs e, wf p -> 0 <= e -> sorted_from 0 reqs -> Forall (fun tc => 0 < snd tc) reqs ->
  released 0 e (run p (binit p) reqs) <= capacity p + quantum p * (e / fillInterval p).
Proof.
  intros p reqs e Hwf He Hs Hpos. destruct (Hwf) as (Hc0 & _ & HF).
  rewrite released_sum_if.
  replace (capacity p + quantum p * (e / fillInterval p)) with (bal p (binit p) (e / fillInterval p))
    by (unfold bal; cbn [binit avail ltick]; lia).
  apply (released_upto p _ _ reqs (binit p) 0 Hwf); [|apply ok_binit | exact Hs | exact Hpos|].
  - intros r Hr. apply andb_true_iff in Hr. apply Z.div_le_mono; lia.
  - rewrite rel_served by (cbn [binit avail]; lia). apply Z.div_pos; lia.
Qed.

(* NewBucketWithRate's acceptance test (Model: rate_ok), as a property of the parameters *)
Definition within_1pct (rate : Z) (p : params) : Prop :=
  100 * Z.abs (1000000000 * quantum p - rate * fillInterval p) <= rate * fillInterval p.

(* one quantum per tick is at most 1.01 * rate per second *)
Lemma quantum_per_tick : forall rate p t, wf p -> 0 < rate -> within_1pct rate p -> 0 <= t ->
  100 * 1000000000 * (quantum p * (t / fillInterval p)) <= 101 * rate * t.
Proof.
  intros rate p t (_ & Hq & HF) Hrate H1 Ht. unfold within_1pct in H1.
  pose proof (tick_bounds (fillInterval p) t HF) as [HkF _].
  assert (Hk0 : 0 <= t / fillInterval p) by (apply Z.div_pos; lia).
  assert (Hq1 : 100 * 1000000000 * quantum p <= 101 * rate * fillInterval p) by lia.
  set (k := t / fillInterval p) in *. set (F := fillInterval p) in *. set (q := quantum p) in *.
  clearbody k F q. clear H1.
  transitivity (101 * rate * F * k); nia.
Qed.

(* in rate terms: capacity = rate (one second's worth), quantum/fillInterval within 1 % of rate, every
   message at most one second's worth: bytes in [s,e] <= 1.01 * rate * (e-s)/1e9 + rate + 2*quantum *)
Theorem bound_rate : forall rate p reqs s e, wf p -> 0 < rate ->
  capacity p = rate -> within_1pct rate p ->
  0 <= s <= e -> sorted_from 0 reqs -> counts_in rate reqs ->
  100 * 1000000000 * released s e (run p (binit p) reqs)
  <= 101 * rate * (e - s) + 100 * 1000000000 * (rate + 2 * quantum p).
Proof.
  intros rate p reqs s e Hwf Hrate Hcap H1 Hse Hs Hm.
  pose proof (bound p reqs s e rate Hwf Hse Hs Hm) as B. rewrite Hcap, Z.max_id in B.
  pose proof (quantum_per_tick rate p (e - s) Hwf Hrate H1 ltac:(lia)) as Hq1.
  destruct Hwf as (_ & Hq & HF).
  (* an interval of length t touches at most t / fillInterval + 2 ticks *)
  assert (Hk : e / fillInterval p - s / fillInterval p <= (e - s) / fillInterval p + 1).
  { pose proof (tick_bounds (fillInterval p) e HF) as He. pose proof (tick_bounds (fillInterval p) s HF) as Hs'.
    pose proof (tick_bounds (fillInterval p) (e - s) HF) as Hes. clear - He Hs' Hes HF. nia. }
  assert (quantum p * (e / fillInterval p - s / fillInterval p + 1) <= quantum p * ((e - s) / fillInterval p + 2))
    by (apply Z.mul_le_mono_nonneg_l; lia).
  lia.
Qed.

Theorem from_start_rate : forall rate p reqs e, wf p -> 0 < rate -> capacity p = rate -> within_1pct rate p ->
  0 <= e -> sorted_from 0 reqs -> Forall (fun tc => 0 < snd tc) reqs ->
  100 * 1000000000 * released 0 e (run p (binit p) reqs) <= 101 * rate * e + 100 * 1000000000 * rate.
Proof.
  intros rate p reqs e Hwf Hrate Hcap H1 He Hs Hpos.
  pose proof (from_start p reqs e Hwf He Hs Hpos) as B. rewrite Hcap in B.
  pose proof (quantum_per_tick rate p e Hwf Hrate H1 He). lia.
Qed.

(* whatever the search returns satisfies the 1 % condition (so the rate corollary applies to every
   valve MakeValve builds) and is well-formed *)
Lemma search_ok : forall rate qs q F, Forall (fun q => 0 < q) qs ->
  search rate qs = Some (q, F) -> 0 < q /\ 0 < F /\ 100 * Z.abs (1000000000 * q - rate * F) <= rate * F.
Proof.
  induction qs as [|q0 qs IH]; intros q F Hq H; cbn [search] in H; [discriminate|].
  inversion Hq; subst. destruct (rate_ok rate q0 (fill_for rate q0)) eqn:E.
  - injection H as <- <-. unfold rate_ok in E. apply andb_true_iff in E as [E1 E2]. lia.
  - eauto.
Qed.

Lemma next_quantum_pos : forall q, 0 < q -> 0 < next_quantum q.
Proof.
  intros q Hq. unfold next_quantum. destruct (q * 11 / 10 =? q) eqn:E; [lia|].
  pose proof (Z.div_pos (q * 11) 10 ltac:(lia) ltac:(lia)).
  assert (q <= q * 11 / 10) by (apply Z.div_le_lower_bound; lia). lia.
Qed.

Lemma quanta_pos : forall fuel q, 0 < q -> Forall (fun q => 0 < q) (quanta fuel q).
Proof. induction fuel; intros q Hq; cbn [quanta]; constructor; [exact Hq | apply IHfuel, next_quantum_pos, Hq]. Qed.

Theorem new_bucket_ok : forall rate cap p, 0 < cap ->
  new_bucket_with_rate rate cap = Some p -> wf p /\ capacity p = cap /\ within_1pct rate p.
Proof.
  intros rate cap p Hc. unfold new_bucket_with_rate.
  (* the candidate list as a variable: nothing below depends on its value *)
  generalize (quanta_pos 400 1 Z.lt_0_1). generalize (quanta 400 1). intros qs Hqs H.
  destruct (search rate qs) as [[q F]|] eqn:E; [|discriminate]. injection H as <-.
  destruct (search_ok rate qs q F Hqs E) as (Hq & HF & H1).
  unfold wf, within_1pct. cbn [capacity quantum fillInterval]. repeat split; assumption.
Qed.

(* cumulative byte counts attached to a run's output *)
Fixpoint cumulate (K : Z) (out : list (Z * Z)) : list (Z * Z) :=
  match out with [] => [] | (r, c) :: o => (r, K + c) :: cumulate (K + c) o end.

(* The ledger: K = everything requested so far.  What the bucket holds (negative: what the waiters still
   owe) plus K never exceeds the initial content plus the refill up to the tick the state was last
   adjusted to, i.e. reckoned back to tick 0 it is at most the capacity.  One request keeps the ledger,
   and its own release tick R satisfies K + c <= capacity + quantum * R WHATEVER the wait is: the wait is
   computed from the debt, with no upper limit. *)
Lemma ledger : forall p reqs st lb K, wf p -> 0 <= lb -> ok p st lb ->
  bal p st 0 + K <= capacity p ->
  sorted_from lb reqs -> Forall (fun tc => 0 < snd tc) reqs ->
  Forall (fun rK => 0 <= fst rK /\ snd rK <= capacity p + quantum p * (fst rK / fillInterval p))
         (cumulate K (run p st reqs)).
Proof.
  intros p reqs. induction reqs as [|[t c] r IH]; intros st lb K Hwf Hlb Hok Hled Hs Hpos; cbn [run]; [constructor|].
  destruct Hs as [Ht Hs]. inversion Hpos as [|x l Hc Hpos']; subst x l. cbn [snd] in Hc.
  pose proof (bal_take p st lb t c 0 Hwf Hok Ht Hc) as Hbal.
  pose proof (ok_take p st lb t c Hok Hc) as Hok'.
  pose proof (take_release p st t c Hwf Hc) as [Hw Hr].
  pose proof (bal_nonneg p (fst (take p st t c)) _ (proj1 (proj2 Hwf)) (Z.le_refl _)) as H0.
  destruct (take p st t c) as [st' w]. cbn [fst snd] in *. cbn [cumulate].
  constructor; [|apply (IH st' t (K + c)); try assumption; lia].
  cbn [fst snd]. rewrite Hr. unfold bal in *. lia.
Qed.

(* EVERY request sequence (non-decreasing request times, positive sizes - NO bound on the sizes, hence
   none on the waits): the request that completes the first K requested bytes is released at a time
   r >= 0, in a tick R with K <= capacity + quantum * R. *)
Theorem never_early : forall p reqs, wf p -> sorted_from 0 reqs -> Forall (fun tc => 0 < snd tc) reqs ->
  Forall (fun rK => 0 <= fst rK /\ snd rK <= capacity p + quantum p * (fst rK / fillInterval p))
         (cumulate 0 (run p (binit p) reqs)).
Proof.
  intros p reqs Hwf Hs Hpos.
  apply (ledger p reqs (binit p) 0 0 Hwf (Z.le_refl 0) (ok_binit p)); [|exact Hs | exact Hpos].
  unfold bal. cbn [binit avail ltick]. lia.
Qed.

(* in rate terms: ... released no earlier than (K - rate) / (1.01 rate) seconds after the bucket was made *)
Theorem never_early_rate : forall rate p reqs, wf p -> 0 < rate -> capacity p = rate -> within_1pct rate p ->
  sorted_from 0 reqs -> Forall (fun tc => 0 < snd tc) reqs ->
  Forall (fun rK => 0 <= fst rK /\ 100 * 1000000000 * (snd rK - rate) <= 101 * rate * fst rK)
         (cumulate 0 (run p (binit p) reqs)).
Proof.
  intros rate p reqs Hwf Hrate Hcap H1 Hs Hpos.
  eapply Forall_impl; [|exact (never_early p reqs Hwf Hs Hpos)]. intros [r K] [Hr HK]. cbn [fst snd] in *.
  split; [exact Hr|].
  pose proof (quantum_per_tick rate p r Hwf Hrate H1 Hr). lia.
Qed.

Lemma cumulate_run_length : forall p reqs st K, length (cumulate K (run p st reqs)) = length reqs.
Proof.
  induction reqs as [|[t c] r IH]; intros st K; cbn [run]; [reflexivity|].
  destruct (take p st t c) as [st' w]. cbn [cumulate length]. now rewrite IH.
Qed.

Lemma cumulate_run_repeat : forall p n k st K i r K',
  nth_error (cumulate K (run p st (repeat (0, n) k))) i = Some (r, K') -> K' = K + (Z.of_nat i + 1) * n.
Proof.
  intros p n k. induction k as [|k IH]; intros st K i r K' H; cbn [repeat run cumulate] in H.
  - destruct i; discriminate.
  - destruct (take p st 0 n) as [st' w]. cbn [cumulate] in H. destruct i as [|i]; cbn [nth_error] in H.
    + injection H as _ <-. lia.
    + apply IH in H. lia.
Qed.

Lemma sorted_repeat0 : forall n k, sorted_from 0 (repeat (0, n) k).
Proof. induction k; cbn [repeat sorted_from]; [exact I | split; [lia | exact IHk]]. Qed.

Lemma positive_repeat : forall n k, 0 < n -> Forall (fun tc : Z * Z => 0 < snd tc) (repeat (0, n) k).
Proof. induction k; intros; cbn [repeat]; constructor; auto. Qed.

(* k requests of n bytes each, all issued at time 0 (k blocked senders, or one sender's backlog): the
   i-th (counting from 0) has K = (i+1)*n bytes requested up to and including itself and is released at
   a time r with (K - capacity) * fillInterval <= quantum * r, i.e. no earlier than (K - capacity)
   divided by the fill rate quantum/fillInterval - for EVERY i, k and n: the wait has no upper limit *)
Theorem backlog_wait : forall p n k i r K, wf p -> 0 < n ->
  nth_error (cumulate 0 (run p (binit p) (repeat (0, n) k))) i = Some (r, K) ->
  K = (Z.of_nat i + 1) * n /\ 0 <= r /\ (K - capacity p) * fillInterval p <= quantum p * r.
Proof.
  intros p n k i r K Hwf Hn H.
  split; [apply cumulate_run_repeat in H; lia|].
  pose proof (never_early p _ Hwf (sorted_repeat0 n k) (positive_repeat n k Hn)) as NE.
  rewrite Forall_forall in NE. destruct (NE _ (nth_error_In _ _ H)) as [Hr HK]. cbn [fst snd] in *.
  split; [exact Hr|].
  destruct Hwf as (_ & Hq & HF). pose proof (tick_bounds (fillInterval p) r HF) as [HkF _].
  set (F := fillInterval p) in *. set (q := quantum p) in *. set (k' := r / F) in *. clearbody k' F q. nia.
Qed.

(* whatever W: some request of a long enough backlog waits longer than W (and it exists) *)
Theorem wait_unbounded : forall p n W, wf p -> 0 < n ->
  exists k r K, nth_error (cumulate 0 (run p (binit p) (repeat (0, n) (S k)))) k = Some (r, K) /\ W < r.
Proof.
  intros p n W Hwf Hn.
  set (k := Z.to_nat (capacity p + quantum p * Z.max 0 W)).
  destruct (nth_error (cumulate 0 (run p (binit p) (repeat (0, n) (S k)))) k) as [[r K]|] eqn:E.
  - exists k, r, K. split; [exact E|].
    destruct (backlog_wait p n (S k) k r K Hwf Hn E) as (HK & _ & H).
    destruct Hwf as (Hc & Hq & HF).
    assert (Hk : Z.of_nat k = capacity p + quantum p * Z.max 0 W) by (subst k; rewrite Z2Nat.id; nia).
    pose proof (Z.le_max_l 0 W) as HM0. pose proof (Z.le_max_r 0 W) as HMW.
    set (M := Z.max 0 W) in *. set (F := fillInterval p) in *. set (q := quantum p) in *.
    set (C := capacity p) in *. clearbody k M F q C.
    (* (K - capacity) * F > q * W, and q * r is at least that *)
    assert (q * M + 1 <= K - C).
    { subst K. rewrite Hk. assert (0 <= (C + q * M + 1) * (n - 1)) by (apply Z.mul_nonneg_nonneg; nia). lia. }
    assert (q * W < (K - C) * F) by nia. nia.
  - apply nth_error_None in E. rewrite cumulate_run_length, repeat_length in E. lia.
Qed.

Fixpoint total (cs : list Z) : Z := match cs with [] => 0 | c :: r => c + total r end.

Definition timely (p : params) (rK : Z * Z) : Prop :=
  0 <= fst rK /\ (fst rK = 0 \/ fst rK * quantum p < (snd rK - capacity p + quantum p) * fillInterval p).

(* invariant of the sequential sender: the current time is a tick boundary R*F, and the bucket's
   balance there is exactly capacity + refill - consumption (the cap never truncates) *)
Definition seq_ok (p : params) (st : bstate) (R K : Z) : Prop :=
  0 <= R /\ ltick st <= R /\ avail st <= capacity p /\
  bal p st R = capacity p + R * quantum p - K /\ 0 <= bal p st R <= capacity p /\
  (R = 0 \/ bal p st R < quantum p).

Lemma seq_timely : forall p st R K, wf p -> seq_ok p st R K -> timely p (R * fillInterval p, K).
Proof.
  intros p st R K (_ & Hq & HF) (HR & _ & _ & Hled & _ & Hsm). unfold timely. cbn [fst snd].
  split; [apply Z.mul_nonneg_nonneg; lia|].
  destruct Hsm as [->|Hsm]; [left; reflexivity | right].
  rewrite <- Z.mul_assoc, (Z.mul_comm (fillInterval p)), Z.mul_assoc.
  apply Z.mul_lt_mono_pos_r; [exact HF | lia].
Qed.

Lemma seq_step : forall p st R K c, wf p -> quantum p <= capacity p -> seq_ok p st R K -> 0 < c ->
  exists R', R * fillInterval p + snd (take p st (R * fillInterval p) c) = R' * fillInterval p /\
             seq_ok p (fst (take p st (R * fillInterval p) c)) R' (K + c).
Proof.
  intros p st R K c (_ & Hq & HF) Hqc (HR & HL & Hcap & Hled & Hb & Hsm) Hc.
  rewrite take_eq by exact Hc. cbv zeta. rewrite Z.div_mul by lia. cbn [fst snd].
  (* the adjusted amount is the balance: no truncation by the capacity *)
  assert (HAv : avail (adjust p st R) = bal p st R).
  { unfold adjust, bal in *. destruct (capacity p <=? avail st) eqn:E; cbn [avail]; [nia|].
    destruct (capacity p <? avail st + (R - ltick st) * quantum p) eqn:E2; lia. }
  rewrite HAv. set (st' := mkB (bal p st R - c) R).
  assert (Eb : forall R', bal p st' R' = bal p st R - c + (R' - R) * quantum p) by reflexivity.
  destruct (avail st' <? 0) eqn:E.
  - (* waits until the tick at which the balance is back in [0, quantum) *)
    destruct (rel_waits p st' Hq ltac:(lia)) as (HR' & Hb').
    exists (rel p st'). split; [apply Zplus_minus|]. rewrite Eb in Hb'. change (ltick st') with R in HR'.
    unfold seq_ok. rewrite Eb. cbn [ltick avail st']. lia.
  - (* served at once: time stands still *)
    exists R. split; [apply Z.add_0_r|]. change (avail st') with (bal p st R - c) in E.
    unfold seq_ok. rewrite Eb. cbn [ltick avail st']. lia.
Qed.

Lemma seq_inv : forall p cs st R K, wf p -> quantum p <= capacity p -> seq_ok p st R K ->
  Forall (fun c => 0 < c) cs ->
  Forall (timely p) (cumulate K (run_seq p st (R * fillInterval p) cs)).
Proof.
  intros p cs. induction cs as [|c cs IH]; intros st R K Hwf Hqc Hok Hcs; cbn [run_seq]; [constructor|].
  inversion Hcs as [|x l Hc Hcs']; subst x l.
  destruct (seq_step p st R K c Hwf Hqc Hok Hc) as (R' & E & Hok').
  destruct (take p st (R * fillInterval p) c) as [st' w]. cbn [fst snd] in *. cbn [cumulate]. rewrite E.
  constructor; [exact (seq_timely p st' R' (K + c) Hwf Hok') | exact (IH st' R' (K + c) Hwf Hqc Hok' Hcs')].
Qed.

(* A backlogged sequential sender: the message that completes the first K bytes is released at time
   0 or before ((K - capacity)/quantum + 1) fill intervals have passed *)
Theorem not_starved : forall p cs, wf p -> quantum p <= capacity p -> Forall (fun c => 0 < c) cs ->
  Forall (timely p) (cumulate 0 (run_seq p (binit p) 0 cs)).
Proof.
  intros p cs Hwf Hqc Hcs. assert (Hc0 : 0 < capacity p) by apply Hwf.
  rewrite <- (Z.mul_0_l (fillInterval p)).
  apply seq_inv; try assumption. unfold seq_ok, bal. cbn [binit avail ltick]. lia.
Qed.

(* in rate terms (capacity = rate, fill rate at least 0.99 rate): the message completing K bytes is released
   at time 0 or earlier than (K - rate + quantum) / (0.99 rate) seconds *)
Theorem not_starved_rate : forall rate p cs, wf p -> 0 < rate -> capacity p = rate -> quantum p <= rate ->
  within_1pct rate p -> Forall (fun c => 0 < c) cs ->
  Forall (fun rK => fst rK = 0 \/ 99 * rate * fst rK < 100 * 1000000000 * (snd rK - rate + quantum p))
         (cumulate 0 (run_seq p (binit p) 0 cs)).
Proof.
  intros rate p cs Hwf Hrate Hcap Hq1 H1 Hcs.
  pose proof (not_starved p cs Hwf ltac:(lia) Hcs) as H.
  destruct Hwf as (Hc0 & Hq & HF). unfold within_1pct in H1.
  eapply Forall_impl; [|exact H]. intros [r K] [Hr [H0|Hlt]]; cbn [fst snd] in *; [now left|].
  right. rewrite Hcap in Hlt.
  assert (HF99 : 99 * rate * fillInterval p <= 100 * 1000000000 * quantum p) by lia.
  set (X := K - rate + quantum p) in *. set (q := quantum p) in *. set (F := fillInterval p) in *.
  clearbody X q F.
  (* r*q < X*F and r >= 0, so X > 0; then 99 rate r q < 99 rate X F <= 1e11 q X *)
  assert (HX : 0 < X) by nia.
  apply (Z.mul_lt_mono_pos_l q); [exact Hq|].
  assert (A2 : 99 * rate * (r * q) < 99 * rate * (X * F)) by (apply Z.mul_lt_mono_pos_l; lia).
  assert (A4 : X * (99 * rate * F) <= X * (100 * 1000000000 * q)) by (apply Z.mul_le_mono_nonneg_l; lia).
  lia.
Qed.

Lemma run_gaps_zero : forall p cs st t, run_gaps p st t (map (fun c => (0, c)) cs) = run_seq p st t cs.
Proof.
  induction cs as [|c cs IH]; intros st t; cbn [map run_gaps run_seq]; [reflexivity|].
  rewrite Z.add_0_r. destruct (take p st t c) as [st' w]. now rewrite IH.
Qed.

Lemma find_session_valve : forall l v sid w,
  Forall (fun sv => snd sv = v) l -> find_session sid l = Some w -> w = v.
Proof.
  induction l as [|[s x] l IH]; intros v sid w H Hf; cbn [find_session] in Hf; [discriminate|].
  inversion H; subst. destruct (Nat.eqb s sid); [now injection Hf as <- | eauto].
Qed.

(* whatever sequence of GetSession calls: every session of the user holds the user's valve *)
Lemma get_session_shared : forall sids u,
  Forall (fun sv => snd sv = u_valve u) (u_sessions u) ->
  let u' := fold_left (fun u sid => fst (get_session u sid)) sids u in
  u_valve u' = u_valve u /\ Forall (fun sv => snd sv = u_valve u) (u_sessions u') /\
  forall sid, snd (get_session u' sid) = u_valve u.
Proof.
  induction sids as [|sid sids IH]; intros u H; cbn [fold_left].
  - split; [reflexivity|]. split; [exact H|]. intro sid. unfold get_session.
    destruct (find_session sid (u_sessions u)) as [w|] eqn:E; cbn [snd]; [|reflexivity].
    eapply find_session_valve; eauto.
  - assert (H' : Forall (fun sv => snd sv = u_valve (fst (get_session u sid))) (u_sessions (fst (get_session u sid)))
                 /\ u_valve (fst (get_session u sid)) = u_valve u).
    { unfold get_session. destruct (find_session sid (u_sessions u)); cbn [fst u_sessions u_valve]; [now split|].
      split; [|reflexivity]. constructor; [reflexivity | exact H]. }
    destruct H' as [H1 H2]. specialize (IH _ H1). rewrite H2 in IH. exact IH.
Qed.

Definition untag (x : nat * Z * Z) : Z * Z := let '(_, t, c) := x in (t, c).

(* the sessions' requests are served by that one bucket: what all sessions together release in any
   interval is what the single bucket releases for the merged request sequence *)
Lemma run_tagged_untag : forall p reqs st, map untag (run_tagged p st reqs) = run p st (map untag reqs).
Proof.
  induction reqs as [|[[sid t] c] r IH]; intro st; cbn [run_tagged run map untag]; [reflexivity|].
  destruct (take p st t c) as [st' w]. cbn [map untag]. now rewrite IH.
Qed.

(* rate 1000 B/s: NewBucketWithRate(1000, 1000) = quantum 1, fillInterval 1 ms, capacity 1000 *)
Definition p1000 : params := mkParams 1000 1 1000000.

Lemma search_1000 : new_bucket_with_rate 1000 1000 = Some p1000.
Proof. vm_compute. reflexivity. Qed.

(* rate 500 B/s: quantum 1, fillInterval 2 ms (the bucket of C19_refuted_capped_wait) *)
Definition p500 : params := mkParams 500 1 2000000.

Lemma search_500 : new_bucket_with_rate 500 500 = Some p500.
Proof. vm_compute. reflexivity. Qed.

(* one maximal frame (16401 bytes) is released whole, 15.401 s after it was requested: a burst of
   16401 bytes in an interval of length zero, where rate * 0 + one second's worth = 1000 (+1 %) *)
Lemma small_rate_burst :
  run p1000 (binit p1000) [(0, server_appDataMaxLength)] = [(15401000000, 16401)] /\
  released 15401000000 15401000000 (run p1000 (binit p1000) [(0, server_appDataMaxLength)]) = 16401.
Proof. split; vm_compute; reflexivity. Qed.

Lemma bound_inhabited :
  new_bucket_with_rate 1000 1000 = Some p1000 /\ wf p1000 /\ within_1pct 1000 p1000 /\
  sorted_from 0 [(0, 600); (0, 600); (5, 1000)] /\ counts_in 1000 [(0, 600); (0, 600); (5, 1000)] /\
  run p1000 (binit p1000) [(0, 600); (0, 600); (5, 1000)] = [(0, 600); (200000000, 600); (1200000000, 1000)].
Proof.
  split; [exact search_1000|]. split; [unfold wf; cbn; lia|]. split; [unfold within_1pct; cbn; lia|].
  split; [cbn; lia|]. split; [repeat constructor; cbn; lia|]. vm_compute. reflexivity.
Qed.

(* bound_rate without its premise that no message exceeds one second's worth *)
Lemma full_refuted : ~
  forall rate p reqs s e, wf p -> 0 < rate -> capacity p = rate -> within_1pct rate p ->
  0 <= s <= e -> sorted_from 0 reqs -> Forall (fun tc => 0 < snd tc) reqs ->
  100 * 1000000000 * released s e (run p (binit p) reqs)
  <= 101 * rate * (e - s) + 100 * 1000000000 * (rate + 2 * quantum p).
Proof.
  intro H. destruct bound_inhabited as (_ & Hwf & H1 & _).
  specialize (H 1000 p1000 [(0, server_appDataMaxLength)] 15401000000 15401000000 Hwf).
  rewrite (proj2 small_rate_burst) in H.
  assert (100 * 1000000000 * 16401 <= 101 * 1000 * (15401000000 - 15401000000) + 100 * 1000000000 * (1000 + 2 * quantum p1000)).
  { apply H; try lia.
    - reflexivity.
    - exact H1.
    - cbn [sorted_from]. lia.
    - repeat constructor. }
  unfold p1000 in H0. cbn [quantum] in H0. lia.
Qed.
