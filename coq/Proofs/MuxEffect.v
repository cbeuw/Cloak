(* How each building block of Model/Mux.v acts on the view of one direction of one stream
   (Proofs/MuxView.v): which visible actions it performs, and that the frames it reports
   are exactly the frames those actions put on the wire. *)
From Coq Require Import NArith ZArith List Bool Lia Sorting.Permutation.
From Coq Require Import ZifyN ZifyBool.
From Cloak Require Import Model.Reorder Model.Mux Proofs.MuxBase Proofs.MuxSafety Proofs.MuxView Proofs.MuxWire.
Import ListNotations.
Local Open Scope N_scope.

Section Effect.
Variable s : side.
Variable sid : N.
Let o := other s.

Notation inflight := (inflight s sid).
Notation sview := (sview s sid).
Notation rview := (rview s sid).
Notation quiet := (quiet s sid).
Notation keep := (keep sid).
Notation vstep := (vstep s sid).
Notation vsteps := (vsteps s sid).
Notation ev_frames := (ev_frames s sid).

Definition arrivals (l : list act) : list wframe :=
  flat_map (fun a => match a with AArrive fr => [fr] | _ => [] end) l.
Lemma arrivals_app a b : arrivals (a ++ b) = arrivals a ++ arrivals b.
Proof. unfold arrivals. apply flat_map_app. Qed.

(* what a stretch of the model does to the view, as visible actions: [em] frames emitted, [rd] bytes handed to
   the reader, [ar] frames written into the receiver's re-sequencer *)
Definition does (b : bool) (y y' : sys) (em : list wframe) (rd : list N) (ar : list wframe) : Prop :=
  exists acts, vsteps b y acts y' /\ emitted acts = em /\ readout acts = rd /\ arrivals acts = ar.
Lemma does_refl b y : does b y y [] [] [].
Proof. exists []. split; [constructor|repeat split]. Qed.
Lemma does_step b y a y' : vstep b y a y' -> does b y y' (emitted [a]) (readout [a]) (arrivals [a]).
Proof. intros H. exists [a]. split; [now apply MuxView.vsteps_one|repeat split]. Qed.
Lemma does_quiet b y y' : quiet y y' -> does b y y' [] [] [].
Proof. intros H. apply (does_step b y AQuiet). now constructor. Qed.
Lemma does_trans b y y1 y2 e1 r1 a1 e2 r2 a2 :
  does b y y1 e1 r1 a1 -> does b y1 y2 e2 r2 a2 -> does b y y2 (e1 ++ e2) (r1 ++ r2) (a1 ++ a2).
Proof.
  intros (l1 & V1 & <- & <- & <-) (l2 & V2 & <- & <- & <-). exists (l1 ++ l2).
  split; [eapply MuxView.vsteps_app; eauto|]. now rewrite emitted_app, readout_app, arrivals_app.
Qed.
Lemma does_then_quiet b y y1 y2 e r a : does b y y1 e r a -> quiet y1 y2 -> does b y y2 e r a.
Proof. intros H Hq. pose proof (does_trans _ _ _ _ _ _ _ _ _ _ H (does_quiet b _ _ Hq)) as X. now rewrite !app_nil_r in X. Qed.
Lemma does_weaken b y y' e r a : does false y y' e r a -> does b y y' e r a.
Proof. intros (l & V & H). exists l. split; [now apply MuxView.vsteps_weaken|exact H]. Qed.

Definition sv (st : stream) : N * N * bool := (st_seq st, st_wcl st, st_closed st).
Definition rv (st : stream) : rbuf * bool := (st_rb st, st_closed st).

Lemma side_eqb_so : side_eqb s o = false. Proof. apply side_eqb_other. Qed.
Lemma side_eqb_os : side_eqb o s = false. Proof. apply side_eqb_other'. Qed.
Lemma o_neq_s : o <> s. Proof. unfold o. destruct s; discriminate. Qed.

Lemma sview_set_sess y x se :
  sview (set_sess y x se) = if side_eqb x s then option_map sv (lookup sid (se_objs se)) else sview y.
Proof. unfold MuxView.sview. rewrite sess_set. destruct (side_eqb x s); reflexivity. Qed.
Lemma rview_set_sess y x se :
  rview (set_sess y x se) = if side_eqb x o then option_map rv (lookup sid (se_objs se)) else rview y.
Proof. unfold MuxView.rview. fold o. rewrite sess_set. destruct (side_eqb x o); reflexivity. Qed.
Lemma sview_set_conns y cs : sview (set_conns y cs) = sview y.
Proof. unfold MuxView.sview. now rewrite sess_set_conns. Qed.
Lemma rview_set_conns y cs : rview (set_conns y cs) = rview y.
Proof. unfold MuxView.rview. now rewrite sess_set_conns. Qed.
Lemma sview_set_pend y p : sview (set_pend y p) = sview y.
Proof. unfold MuxView.sview. now rewrite sess_set_pend. Qed.
Lemma rview_set_pend y p : rview (set_pend y p) = rview y.
Proof. unfold MuxView.rview. now rewrite sess_set_pend. Qed.
Lemma sview_def y : sview y = option_map sv (lookup sid (se_objs (sess y s))).
Proof. reflexivity. Qed.
Lemma rview_def y : rview y = option_map rv (lookup sid (se_objs (sess y o))).
Proof. reflexivity. Qed.

(* a session whose objects are unchanged, put back: quiet *)
Lemma quiet_set_sess_same_objs y x se :
  se_objs se = se_objs (sess y x) -> quiet y (set_sess y x se).
Proof.
  intros H. split; [rewrite inflight_set_sess; reflexivity|]. split.
  - left. rewrite sview_set_sess. destruct (side_eqb x s) eqn:E; [|reflexivity].
    apply side_eqb_eq in E. subst x. now rewrite H.
  - left. rewrite rview_set_sess. destruct (side_eqb x o) eqn:E; [|reflexivity].
    apply side_eqb_eq in E. subst x. now rewrite H.
Qed.

(* the view after the object in slot id of side x has been replaced by st' *)
Lemma view_set_obj y x se' id st' :
  se_objs se' = update id st' (se_objs (sess y x)) ->
  inflight (set_sess y x se') = inflight y /\
  sview (set_sess y x se') = (if side_eqb x s && (id =? sid) then Some (sv st') else sview y) /\
  rview (set_sess y x se') = (if side_eqb x o && (id =? sid) then Some (rv st') else rview y).
Proof.
  intros He. split; [apply inflight_set_sess|].
  rewrite sview_set_sess, rview_set_sess, He, !lookup_update, (N.eqb_sym sid id).
  split; [destruct (side_eqb x s) eqn:E|destruct (side_eqb x o) eqn:E]; try reflexivity;
    apply side_eqb_eq in E; subst x; destruct (id =? sid); reflexivity.
Qed.
Lemma view_put_obj y x id st' :
  let y' := set_sess y x (upd_objs (sess y x) (update id st' (se_objs (sess y x)))) in
  inflight y' = inflight y /\
  sview y' = (if side_eqb x s && (id =? sid) then Some (sv st') else sview y) /\
  rview y' = (if side_eqb x o && (id =? sid) then Some (rv st') else rview y).
Proof. now apply view_set_obj. Qed.

(* ... is quiet if it closes, or leaves alone, what this view shows of the object *)
Lemma quiet_put_obj y x id st st' :
  lookup id (se_objs (sess y x)) = Some st ->
  (side_eqb x s && (id =? sid) = true -> sclose (Some (sv st)) (Some (sv st'))) ->
  (side_eqb x o && (id =? sid) = true -> rclose (Some (rv st)) (Some (rv st'))) ->
  quiet y (set_sess y x (upd_objs (sess y x) (update id st' (se_objs (sess y x))))).
Proof.
  intros El Hs Hr. destruct (view_put_obj y x id st') as (Hi & Hsv & Hrv). cbv zeta in *.
  split; [now rewrite Hi|]. rewrite Hsv, Hrv. split.
  - destruct (side_eqb x s && (id =? sid)) eqn:E; [|apply sclose_refl]. specialize (Hs eq_refl).
    apply andb_prop in E as [E1 E2]. apply side_eqb_eq in E1. subst x. assert (Hid : id = sid) by lia.
    now rewrite sview_def, <- Hid, El.
  - destruct (side_eqb x o && (id =? sid)) eqn:E; [|apply rclose_refl]. specialize (Hr eq_refl).
    apply andb_prop in E as [E1 E2]. apply side_eqb_eq in E1. subst x. assert (Hid : id = sid) by lia.
    now rewrite rview_def, <- Hid, El.
Qed.

Lemma quiet_set_pend y p : quiet y (set_pend y p).
Proof. apply quiet_same; [reflexivity|now rewrite sess_set_pend|fold o; now rewrite sess_set_pend]. Qed.
Lemma quiet_set_now y t : quiet y (set_now y t).
Proof. apply quiet_same; [reflexivity|now rewrite sess_set_now|fold o; now rewrite sess_set_now]. Qed.

(* a block that is quiet for the view and reports no frame of this direction; such blocks compose *)
Definition silent (y y' : sys) (evs : list ev) : Prop := quiet y y' /\ ev_frames evs = [].
Lemma silent_quiet y y' : quiet y y' -> silent y y' [].
Proof. intros H. split; [exact H|reflexivity]. Qed.
Lemma silent_refl y : silent y y [].
Proof. apply silent_quiet, quiet_refl. Qed.
Lemma silent_trans y y1 y2 e1 e2 : silent y y1 e1 -> silent y1 y2 e2 -> silent y y2 (e1 ++ e2).
Proof. intros [Hq1 Hf1] [Hq2 Hf2]. split; [eapply quiet_trans; eauto|now rewrite ev_frames_app, Hf1, Hf2]. Qed.
Lemma silent_after y y1 y2 evs : quiet y y1 -> silent y1 y2 evs -> silent y y2 evs.
Proof. intros Hq H. exact (silent_trans _ _ _ [] _ (silent_quiet _ _ Hq) H). Qed.

(* connection ends closed, queues as they were *)
Lemma quiet_set_conns y cs :
  map (fun c => conn_q c o) cs = map (fun c => conn_q c o) (sy_conns y) -> quiet y (set_conns y cs).
Proof.
  intros Hq. split; [rewrite (inflight_conns_q s sid y cs Hq); reflexivity|].
  split; left; [apply sview_set_conns|apply rview_set_conns].
Qed.
(* events of blocks that put no frame on the wire *)
Lemma no_frames evs : wires (fun _ => False) evs -> ev_frames evs = [].
Proof.
  induction 1 as [|e t He Ht IH]; [reflexivity|]. destruct e; try contradiction. exact IH.
Qed.

Lemma close_all_silent y x y' evs : close_all y x = (y', evs) -> silent y y' evs.
Proof.
  unfold close_all. intros H. destruct (se_broken (sess y x)); [injection H as <- <-; apply silent_refl|].
  pose proof (close_ends_q s x (se_pool (sess y x)) (sy_conns y)) as Hq.
  pose proof (close_ends_wire (fun _ => False) x (se_pool (sess y x)) (sy_conns y)) as Hw.
  destruct (close_ends x (se_pool (sess y x)) (sy_conns y)) as [cs e]. injection H as <- <-. cbn in Hq, Hw.
  split; [|apply no_frames; exact Hw].
  eapply quiet_trans; [apply (quiet_set_sess_same_objs y x (upd_broken (sess y x) true)); reflexivity|].
  apply quiet_set_conns. now rewrite conns_set_sess.
Qed.

Lemma close_session_core_quiet y x se ok :
  close_session_core (sess y x) = (se, ok) -> quiet y (set_sess y x se).
Proof.
  unfold close_session_core. intros H. destruct (se_closed (sess y x)).
  - injection H as <- <-. apply quiet_set_sess_same_objs. reflexivity.
  - pose proof (sweep_objs (se_tab (sess y x)) (se_objs (sess y x)) (se_count (sess y x)) sid) as Hs.
    destruct (sweep _ _ _) as [[t' o'] c']. cbn [fst snd] in Hs. injection H as <- <-.
    split; [rewrite inflight_set_sess; reflexivity|].
    rewrite sview_set_sess, rview_set_sess. cbn [se_objs upd_count upd_objs]. rewrite Hs. split.
    + destruct (side_eqb x s) eqn:E; [|apply sclose_refl]. apply side_eqb_eq in E. subst x. rewrite sview_def.
      destruct (lookup sid (se_objs (sess y s))) as [st|]; [|apply sclose_refl]. cbn [option_map].
      destruct (swept _ sid && negb (st_closed st)) eqn:Eb; [|apply sclose_refl]. apply andb_prop in Eb as [_ Eb].
      right. exists (st_seq st), (st_wcl st), (st_wcl st). unfold sv. cbn. destruct (st_closed st); [discriminate|auto].
    + destruct (side_eqb x o) eqn:E; [|apply rclose_refl]. apply side_eqb_eq in E. subst x. rewrite rview_def.
      destruct (lookup sid (se_objs (sess y o))) as [st|]; [|apply rclose_refl]. cbn [option_map].
      destruct (swept _ sid && negb (st_closed st)) eqn:Eb; [|apply rclose_refl]. apply andb_prop in Eb as [_ Eb].
      right. exists (st_rb st). unfold rv. cbn. destruct (st_closed st); [discriminate|auto].
Qed.

Lemma passive_close_silent y x y' evs : passive_close y x = (y', evs) -> silent y y' evs.
Proof.
  unfold passive_close. intros H. destruct (close_session_core (sess y x)) as [se ok] eqn:Ecs.
  pose proof (close_session_core_quiet _ _ _ _ Ecs) as Hq.
  destruct ok; [|injection H as <- <-; apply silent_refl].
  eapply silent_after; [exact Hq|]. eapply close_all_silent; exact H.
Qed.

(* one element of the list is replaced: what it contributed goes, what the new one contributes comes *)
Lemma flat_map_setN_perm {A B} (f : A -> list B) n v a l e1 e2 r :
  nthN n l = Some a -> Permutation (f a) (e1 ++ r) -> Permutation (f v) (e2 ++ r) ->
  Permutation (e2 ++ flat_map f l) (e1 ++ flat_map f (setN n v l)).
Proof.
  revert n; induction l as [|x t IH]; intros [|n] Hn Ha Hv; cbn in *; try discriminate.
  - injection Hn as ->. rewrite Ha, Hv, !app_assoc. do 2 apply Permutation_app_tail. apply Permutation_app_comm.
  - rewrite (Permutation_app_swap_app e2), (Permutation_app_swap_app e1). apply Permutation_app_head. now apply IH.
Qed.

Lemma conn_q_set_q_same cn x q : conn_q (conn_set_q cn x q) x = q.
Proof. destruct x, cn; reflexivity. Qed.
Lemma conn_q_set_q_other cn x q : conn_q (conn_set_q cn x q) (other x) = conn_q cn (other x).
Proof. destruct x, cn; reflexivity. Qed.

(* side x enqueues fr on connection p *)
Lemma inflight_enqueue y x p cn fr :
  nthN p (sy_conns y) = Some cn ->
  Permutation
    (inflight (set_conns y (setN p (conn_set_q cn (other x) (conn_q cn (other x) ++ [fr])) (sy_conns y))))
    ((if side_eqb x s && keep fr then [fr] else []) ++ inflight y).
Proof.
  intros Hn. unfold MuxView.inflight. fold o. cbn [sy_conns set_conns]. symmetry.
  apply (flat_map_setN_perm _ _ _ cn _ [] _ (filter keep (conn_q cn o))); [exact Hn|reflexivity|].
  destruct (side_cases x s) as [->| ->].
  - fold o. rewrite side_eqb_refl, conn_q_set_q_same, filter_app. cbn [andb filter].
    destruct (keep fr); [apply Permutation_app_comm|now rewrite app_nil_r].
  - fold o. rewrite side_eqb_os. cbn [andb app]. unfold o. now rewrite other_other, conn_q_set_q_other.
Qed.

(* frames reported by a successful send *)
Lemma ev_frames_one x p fr : ev_frames [EFrame x p fr] = if side_eqb x s && keep fr then [fr] else [].
Proof. unfold MuxView.ev_frames. cbn. now rewrite app_nil_r. Qed.
Lemma ev_frames_ret evs0 c n d : ev_frames (evs0 ++ [ERet c n d]) = ev_frames evs0.
Proof. rewrite ev_frames_app. cbn. apply app_nil_r. Qed.

Lemma enqueue_silent y x p cn fr :
  nthN (N.to_nat p) (sy_conns y) = Some cn -> side_eqb x s && keep fr = false ->
  silent y (set_conns y (setN (N.to_nat p) (conn_set_q cn (other x) (conn_q cn (other x) ++ [fr])) (sy_conns y)))
         [EFrame x p fr].
Proof.
  intros En Hk. pose proof (inflight_enqueue y x _ cn fr En) as Hp. rewrite Hk in Hp.
  split; [|now rewrite ev_frames_one, Hk].
  split; [symmetry; exact Hp|]. split; left; [apply sview_set_conns|apply rview_set_conns].
Qed.
Lemma sb_send_silent y x fr p y' evs rc :
  sb_send y x fr p = (y', evs, rc) -> side_eqb x s && keep fr = false -> silent y y' evs.
Proof.
  intros H Hk. destruct (sb_send_cases _ _ _ _ _ _ _ H) as [(-> & _ & ->)|[[Epc _]|(cn & En & _ & -> & ->)]];
    [apply silent_refl|eapply passive_close_silent; eauto|now apply enqueue_silent].
Qed.

Lemma session_close_silent y x ch y' ch' evs rc :
  session_close y x ch = (y', ch', evs, rc) -> silent y y' evs.
Proof.
  intros H. destruct (session_close_steps _ _ _ _ _ _ _ H) as [(-> & _ & ->)|(se & y2 & e2 & rc2 & e3 & Ecs & Es & Eca & ->)];
    [apply silent_refl|].
  eapply silent_after; [exact (close_session_core_quiet _ _ _ _ Ecs)|].
  eapply silent_trans; [eapply sb_send_silent; [exact Es|]|eapply close_all_silent; eauto].
  unfold MuxView.keep. cbn. now rewrite !andb_false_r.
Qed.

(* Stream.obfuscateAndSend on the stream of this view: the frame goes out, or the number is consumed and
   the stream ends up closed because its session does *)
Lemma stream_emit_self y pay ch y' ch' evs ok st :
  lookup sid (se_objs (sess y s)) = Some st ->
  stream_emit y s sid pay ch = (y', ch', evs, ok) -> WF y -> st_wcl st <> 2 ->
  let fr := mkW sid (st_seq st) (st_wcl st) pay in
  (ok = true /\ ev_frames evs = [fr] /\ Permutation (inflight y') (fr :: inflight y) /\
     sview y' = Some (st_seq st + 1, st_wcl st, st_closed st) /\ rview y' = rview y)
  \/ (ok = false /\ ev_frames evs = [] /\ Permutation (inflight y) (inflight y') /\
      (exists w', sview y' = Some (st_seq st + 1, w', true)) /\ rclose (rview y) (rview y')).
Proof.
  intros El H Hwf Hw. cbv zeta. pose proof (stream_emit_WF _ _ _ _ _ _ _ _ _ H Hwf) as Hwf'.
  pose proof (stream_emit_cases _ _ _ _ _ _ _ _ _ H) as Hc. rewrite El in Hc. cbv zeta in Hc.
  set (fr := mkW sid (st_seq st) (st_wcl st) pay) in *.
  set (st' := mkS (st_seq st + 1) (st_wcl st) (st_closed st) (st_rb st)) in Hc. set (y1 := set_sess y s _) in Hc.
  destruct (view_put_obj y s sid st') as (Hi1 & Hs1 & Hr1). fold y1 in Hi1, Hs1, Hr1.
  rewrite side_eqb_refl, N.eqb_refl in Hs1. rewrite side_eqb_so in Hr1. cbn [andb] in Hs1, Hr1.
  destruct Hc as [(-> & -> & cn & En & ->)|(-> & Epc)]; [left|right]; (split; [reflexivity|]).
  - assert (Hk : side_eqb s s && keep fr = true).
    { rewrite side_eqb_refl. unfold MuxView.keep, fr. cbn. rewrite N.eqb_refl. cbn. destruct (st_wcl st =? 2) eqn:E; [lia|reflexivity]. }
    pose proof (inflight_enqueue y1 s _ cn fr En) as Hp. rewrite Hk in Hp.
    split; [rewrite ev_frames_one, Hk; reflexivity|]. split; [rewrite Hp, Hi1; reflexivity|].
    rewrite sview_set_conns, rview_set_conns. split; assumption.
  - destruct (passive_close_silent _ _ _ _ Epc) as [(Hp3 & Hs3 & Hr3) Hf]. split; [exact Hf|].
    rewrite Hi1 in Hp3. rewrite Hr1 in Hr3. split; [exact Hp3|split; [|exact Hr3]].
    rewrite Hs1 in Hs3. unfold sv, st' in Hs3. cbn in Hs3. destruct Hs3 as [Hs3|(q & w & w' & Ha & Hb)].
    + (* not closed by the teardown: then it was closed already, since the session is closed now *)
      rewrite sview_def in Hs3. destruct (lookup sid (se_objs (sess y' s))) as [st3|] eqn:E3; [|discriminate].
      destruct (WF_sess y' s Hwf') as (_ & Hc3 & _). specialize (Hc3 (passive_close_closed _ _ _ _ Epc) _ _ E3).
      cbn in Hs3. injection Hs3 as H1 H2 H3. exists (st_wcl st). rewrite sview_def, E3. cbn. unfold sv.
      now rewrite H1, H2, Hc3.
    + injection Ha as <- <- Hc. exists w'. exact Hb.
Qed.

(* ... on any other stream, or by the other side: quiet *)
Lemma stream_emit_other y x sid' pay ch y' ch' evs ok :
  stream_emit y x sid' pay ch = (y', ch', evs, ok) -> side_eqb x s && (sid' =? sid) = false -> silent y y' evs.
Proof.
  intros H Hne. pose proof (stream_emit_cases _ _ _ _ _ _ _ _ _ H) as Hc.
  destruct (lookup sid' (se_objs (sess y x))) as [st|] eqn:El; [|destruct Hc as (-> & -> & _); apply silent_refl].
  cbv zeta in Hc. set (y1 := set_sess y x _) in Hc.
  assert (Hq1 : quiet y y1).
  { apply (quiet_put_obj y x sid' st); [exact El|congruence|intros _; left; reflexivity]. }
  eapply silent_after; [exact Hq1|].
  destruct Hc as [(_ & -> & cn & En & ->)|(_ & Epc)]; [|eapply passive_close_silent; eauto].
  apply enqueue_silent; [exact En|].
  unfold MuxView.keep. cbn [w_sid]. destruct (side_eqb x s); [|reflexivity]. cbn [andb] in *. now rewrite Hne.
Qed.

(* the bookkeeping after the (optional) closing frame: table entry, counter, timer or Session.Close *)
Lemma close_stream_tail y2 x sid' ch2 evs2 y' evs :
  (let se' := upd_count (upd_tab (sess y2 x) (update sid' false (se_tab (sess y2 x)))) (decr32 (se_count (sess y2 x))) in
   let y3 := set_sess y2 x se' in
   (exists ts, y' = set_sess y3 x (upd_timers se' ts)) /\ evs = evs2 \/
   exists ch4 evs4 rc4, se_singleplex (sess y2 x) = true /\
     session_close y3 x ch2 = (y', ch4, evs4, rc4) /\ evs = evs2 ++ evs4) ->
  quiet y2 y' /\ ev_frames evs = ev_frames evs2.
Proof.
  cbv zeta. set (se' := upd_count _ _).
  assert (Hq3 : quiet y2 (set_sess y2 x se')) by (apply quiet_set_sess_same_objs; reflexivity).
  intros [[(ts & ->) ->]|(ch4 & evs4 & rc4 & _ & Esc & ->)].
  - split; [|reflexivity]. eapply quiet_trans; [exact Hq3|]. apply quiet_set_sess_same_objs. now rewrite sess_set_same.
  - destruct (session_close_silent _ _ _ _ _ _ _ Esc) as [Hq4 Hf4]. split; [eapply quiet_trans; eauto|].
    now rewrite ev_frames_app, Hf4, app_nil_r.
Qed.

(* every closeStream except the sender's own active Close of this very stream is quiet *)
Lemma close_stream_silent y x sid' active ch y' ch' evs rc :
  close_stream y x sid' active ch = (y', ch', evs, rc) ->
  side_eqb x s && (sid' =? sid) && active = false -> silent y y' evs.
Proof.
  intros H Hne.
  destruct (close_stream_cases _ _ _ _ _ _ _ _ _ H) as [(-> & -> & _)|(st & y2 & ch2 & evs2 & ok & El & Ecl & Ee & Ht)];
    [apply silent_refl|].
  cbv zeta in Ee. set (y1 := set_sess y x _) in Ee.
  assert (Hq1 : quiet y y1).
  { apply (quiet_put_obj y x sid' st); [exact El| |]; intros _; right; unfold sv, rv; rewrite Ecl; cbn; eauto. }
  assert (He : silent y y2 evs2).
  { eapply silent_after; [exact Hq1|]. destruct active.
    - eapply stream_emit_other; [exact Ee|]. rewrite andb_true_r in Hne. exact Hne.
    - injection Ee as <- _ <- _. apply silent_refl. }
  destruct Ht as [(_ & -> & ->)|(_ & Ht)]; [exact He|].
  apply close_stream_tail in Ht. destruct Ht as [Hq3 Hf3]. destruct He as [Hq2 Hf2].
  split; [eapply quiet_trans; eauto|now rewrite Hf3].
Qed.

(* the sender's active Close of this stream: number the closing frame, put it on the wire *)
Lemma close_stream_self y ch y' ch' evs rc :
  close_stream y s sid true ch = (y', ch', evs, rc) -> WF y -> does false y y' (ev_frames evs) [] [].
Proof.
  intros H Hwf.
  destruct (close_stream_cases _ _ _ _ _ _ _ _ _ H) as [(-> & -> & _)|(st & y2 & ch2 & evs2 & ok & El & Ecl & Ee & Ht)];
    [apply does_refl|].
  cbv zeta in Ee. set (st1 := mkS _ _ true _) in Ee. set (y1 := set_sess y s _) in Ee.
  assert (Hsv : sview y = Some (st_seq st, st_wcl st, false)) by (rewrite sview_def, El; cbn; unfold sv; now rewrite Ecl).
  assert (El1 : lookup sid (se_objs (sess y1 s)) = Some st1).
  { unfold y1. rewrite sess_set_same. cbn [se_objs upd_objs]. apply lookup_update_eq. }
  assert (Hwf1 : WF y1).
  { unfold y1. apply WF_set_sess; [exact Hwf| | |].
    - destruct (WF_sess y s Hwf) as (Ho & _ & _). destruct (Ho _ _ El) as (_ & _ & H3).
      apply WFse_upd_obj; [apply WF_sess; exact Hwf|reflexivity|discriminate|reflexivity|exact H3].
    - reflexivity.
    - cbn; auto. }
  destruct (view_put_obj y s sid st1) as (Hi1 & _ & Hr1). fold y1 in Hi1, Hr1.
  rewrite side_eqb_so in Hr1. cbn [andb] in Hr1.
  assert (Hw1 : st_wcl st1 <> 2) by (cbn; lia).
  destruct (stream_emit_self _ _ _ _ _ _ _ _ El1 Ee Hwf1 Hw1) as [(-> & Hf & Hp & Hs2 & Hr2)|(-> & Hf & Hp & (w' & Hs2) & Hr2)];
    cbn [st_seq st_wcl st_closed st1] in *.
  - destruct Ht as [(Hx & _)|(_ & Ht)]; [discriminate|]. apply close_stream_tail in Ht. destruct Ht as [Hq3 Hf3].
    rewrite Hf3, Hf. eapply does_then_quiet; [|exact Hq3]. apply (does_step false y (ACloseEmit (mkW sid (st_seq st) 1 []))).
    eapply VCloseEmit; [exact Hsv|exact Hs2|rewrite Hp, Hi1; reflexivity|left; rewrite Hr2; exact Hr1].
  - destruct Ht as [(_ & -> & ->)|(Hx & _)]; [|discriminate]. rewrite Hf. apply (does_step false y ALost).
    eapply VLost; [exact Hsv|exact Hs2|rewrite <- Hi1; exact Hp|rewrite <- Hr1; exact Hr2].
Qed.

(* a fresh stream object appears in slot id of side x *)
Lemma create_effect y x id se' :
  se_objs se' = update id new_stream (se_objs (sess y x)) -> lookup id (se_objs (sess y x)) = None ->
  does false y (set_sess y x se') [] [] [].
Proof.
  intros Hobj Hfresh. destruct (view_set_obj y x se' id new_stream Hobj) as (Hi & Hs & Hr).
  destruct (id =? sid) eqn:Es; rewrite ?andb_true_r, ?andb_false_r in Hs, Hr.
  - assert (Hid : id = sid) by lia. subst id.
    destruct (side_cases x s) as [->| ->]; fold o in Hfresh, Hs, Hr |- *; rewrite side_eqb_refl in *.
    + apply (does_step false y ACreateS). apply VCreateS; [|exact Hs|exact Hi|].
      * now rewrite sview_def, Hfresh.
      * now rewrite side_eqb_so in Hr.
    + apply (does_step false y ACreateR). apply VCreateR; [|exact Hr|exact Hi|].
      * now rewrite rview_def, Hfresh.
      * now rewrite side_eqb_os in Hs.
  - apply does_quiet. split; [now rewrite Hi|]. rewrite Hs, Hr. split; left; reflexivity.
Qed.

(* the delivery half of recv_frame: the frame is written into the re-sequencer of its stream (an arrival,
   if it is the stream of this view), which may close the stream *)
Lemma deliver_effect y x fr ch y' ch' evs :
  deliver y x fr ch = (y', ch', evs) ->
  exists ar, does false y y' [] [] ar /\ ev_frames evs = [] /\ (ar = [] \/ (x = o /\ w_sid fr = sid /\ ar = [fr])).
Proof.
  unfold deliver. intros H.
  destruct (lookup (w_sid fr) (se_objs (sess y x))) as [st|] eqn:El.
  2:{ injection H as <- _ <-. exists []. split; [apply does_refl|split; [reflexivity|now left]]. }
  destruct (rb_write (st_rb st) _) as [[rb' tbc] er] eqn:Erw. cbv zeta in H.
  set (y1 := set_sess y x _) in H.
  assert (H1 : exists ar, does false y y1 [] [] ar /\ (ar = [] \/ (x = o /\ w_sid fr = sid /\ ar = [fr]))).
  { destruct (side_eqb x o && (w_sid fr =? sid)) eqn:Eo.
    - destruct (view_put_obj y x (w_sid fr) (st_set_rb st rb')) as (Hi & Hs & Hr'). fold y1 in Hi, Hs, Hr'. rewrite Eo in Hr'.
      apply andb_prop in Eo as [E1 E2]. apply side_eqb_eq in E1. subst x. assert (Hsid : w_sid fr = sid) by lia.
      rewrite side_eqb_os in Hs. exists [fr]. split; [|right; auto].
      apply (does_step false y (AArrive fr)).
      apply (VArrive _ _ _ y y1 fr (st_rb st) (st_closed st)); [|rewrite Hr'|exact Hi|exact Hs].
      + rewrite rview_def. rewrite <- Hsid, El. reflexivity.
      + unfold rv, to_frame. cbn. now rewrite Erw.
    - exists []. split; [|now left].
      apply does_quiet, (quiet_put_obj y x (w_sid fr) st); [exact El|intros _; left; reflexivity|congruence]. }
  destruct H1 as (ar & Hd1 & Ha1).
  destruct tbc; [|injection H as <- _ <-; exists ar; auto].
  destruct (close_stream y1 x (w_sid fr) false ch) as [[[y2 ch2] evs2] rc] eqn:Ecs. injection H as <- _ <-.
  destruct (close_stream_silent _ _ _ _ _ _ _ _ _ Ecs (andb_false_r _)) as [Hq2 Hf2].
  exists ar. split; [eapply does_then_quiet; eauto|split; [exact Hf2|exact Ha1]].
Qed.

Lemma recv_frame_effect y x fr ch y' ch' evs :
  recv_frame y x fr ch = (y', ch', evs) -> WF y ->
  exists ar, does false y y' [] [] ar /\ ev_frames evs = [] /\ (ar = [] \/ (x = o /\ keep fr = true /\ ar = [fr])).
Proof.
  rewrite recv_frame_eq. intros H Hwf.
  destruct (w_cl fr =? 2) eqn:Ecl2.
  { destruct (passive_close y x) as [y1 e1] eqn:Epc. injection H as <- <- <-.
    destruct (passive_close_silent _ _ _ _ Epc) as [Hq Hf].
    exists []. split; [apply does_quiet; exact Hq|split; [exact Hf|now left]]. }
  assert (Hnil : exists ar, does false y y [] [] ar /\ ev_frames [] = [] /\
                   (ar = [] \/ (x = o /\ keep fr = true /\ ar = [fr]))).
  { exists []. split; [apply does_refl|split; [reflexivity|now left]]. }
  destruct (se_closed (sess y x)) eqn:Ecl; [injection H as <- <- <-; exact Hnil|].
  (* a frame that arrives for this stream is one the view keeps *)
  assert (Hkeep : forall ar, (ar = [] \/ (x = o /\ w_sid fr = sid /\ ar = [fr])) ->
                             (ar = [] \/ (x = o /\ keep fr = true /\ ar = [fr]))).
  { intros ar [Ha|(H1 & H2 & H3)]; [now left|right]. split; [exact H1|split; [|exact H3]].
    unfold MuxView.keep. rewrite H2, N.eqb_refl, Ecl2. reflexivity. }
  destruct (lookup (w_sid fr) (se_tab (sess y x))) as [[|]|] eqn:Et; [|injection H as <- <- <-; exact Hnil|].
  - destruct (deliver_effect _ _ _ _ _ _ _ H) as (ar & Hd & Hf & Ha). exists ar. auto.
  - set (y0 := set_sess y x _) in H.
    assert (Hnone : lookup (w_sid fr) (se_objs (sess y x)) = None).
    { destruct (lookup (w_sid fr) (se_objs (sess y x))) as [st|] eqn:El; [|reflexivity].
      destruct (WF_sess y x Hwf) as (Ho & _ & _). destruct (Ho _ _ El) as (_ & _ & H3). specialize (H3 Ecl). congruence. }
    pose proof (create_effect y x (w_sid fr) (add_stream (sess y x) (w_sid fr) (se_acceptq (sess y x) ++ [w_sid fr]) (se_nextsid (sess y x)))
                  eq_refl Hnone) as Hd0. fold y0 in Hd0.
    destruct (deliver_effect _ _ _ _ _ _ _ H) as (ar & Hd & Hf & Ha).
    exists ar. split; [exact (does_trans _ _ _ _ _ _ _ _ _ _ Hd0 Hd)|auto].
Qed.

Lemma deplex_error_silent y x c y' evs : deplex_error y x c = (y', evs) -> silent y y' evs.
Proof.
  unfold deplex_error. intros H. destruct (passive_close y x) as [y1 e1] eqn:Epc.
  pose proof (passive_close_silent _ _ _ _ Epc) as Hs.
  destruct (nthN (N.to_nat c) (sy_conns y1)) as [cn|] eqn:En; [|injection H as <- <-; exact Hs].
  destruct (conn_closed_end cn x); injection H as <- <-; [exact Hs|].
  eapply silent_trans; [exact Hs|]. apply silent_quiet, quiet_set_conns.
  apply (map_setN_same _ _ _ cn); [exact En|destruct x, o, cn; reflexivity].
Qed.

Lemma open_stream_effect y x y' evs :
  open_stream y x = (y', evs) ->
  lookup (se_nextsid (sess y x)) (se_objs (sess y x)) = None ->
  does false y y' [] [] [] /\ exists c n, evs = [ERet c n []].
Proof.
  unfold open_stream. intros H Hfresh.
  destruct (se_closed (sess y x)); [injection H as <- <-; split; [apply does_refl|eauto]|].
  cbv zeta in H. destruct (_ && _); injection H as <- <-; (split; [|eauto]).
  - apply does_quiet, quiet_set_sess_same_objs. reflexivity.
  - now apply (create_effect y x (se_nextsid (sess y x))).
Qed.

Lemma write_loop_self fuel : forall y data n ch y' ch' evs n' rc q w,
  write_loop fuel y s sid data n ch = (y', ch', evs, n', rc) -> WF y ->
  sview y = Some (q, w, false) -> w <> 2 -> does false y y' (ev_frames evs) [] [].
Proof.
  induction fuel as [|fuel IH]; intros y data n ch y' ch' evs n' rc q w H Hwf Hsv Hw; cbn in H.
  - injection H as <- <- <- <- <-. apply does_refl.
  - destruct data as [|b data']; [injection H as <- <- <- <- <-; apply does_refl|].
    set (data := b :: data') in *.
    destruct (stream_emit y s sid (firstn (N.to_nat (se_unit (sess y s))) data) ch) as [[[y1 ch1] evs1] ok] eqn:Ee.
    pose proof Hsv as Hsv0. rewrite sview_def in Hsv0. destruct (lookup sid (se_objs (sess y s))) as [st|] eqn:El; [|discriminate].
    cbn in Hsv0. unfold sv in Hsv0. injection Hsv0 as Hq Hw' Hc.
    assert (Hw2 : st_wcl st <> 2) by (rewrite Hw'; exact Hw).
    pose proof (stream_emit_WF _ _ _ _ _ _ _ _ _ Ee Hwf) as Hwf1.
    destruct (stream_emit_self _ _ _ _ _ _ _ _ El Ee Hwf Hw2) as [(-> & Hf & Hp & Hs1 & Hr1)|(-> & Hf & Hp & (w' & Hs1) & Hr1)];
      rewrite Hq, Hw' in *.
    + destruct (write_loop fuel y1 s sid _ _ ch1) as [[[[y2 ch2] evs2] n2] rc2] eqn:Ew.
      injection H as <- <- <- <- <-. rewrite Hc in Hs1.
      rewrite ev_frames_app, Hf. refine (does_trans _ _ _ _ _ [] [] _ _ _ _ (IH _ _ _ _ _ _ _ _ _ _ _ Ew Hwf1 Hs1 Hw)).
      apply (does_step false y (AEmit (mkW sid q w (firstn (N.to_nat (se_unit (sess y s))) data)))).
      eapply VEmit; [exact Hsv|exact Hs1|exact Hp|exact Hr1].
    + injection H as <- <- <- <- <-. rewrite Hf. apply (does_step false y ALost).
      eapply VLost; [exact Hsv|exact Hs1|exact Hp|exact Hr1].
Qed.

Lemma write_loop_other fuel y x sid' data n ch y' ch' evs n' rc :
  write_loop fuel y x sid' data n ch = (y', ch', evs, n', rc) ->
  side_eqb x s && (sid' =? sid) = false -> silent y y' evs.
Proof.
  intros H Hne. revert H. apply (write_loop_ind (fun a e b => silent a b e));
    [apply silent_refl|intros; eapply silent_trans; eauto|intros; eapply stream_emit_other; eauto].
Qed.

Lemma stream_write_effect y x sid' data ch y' evs :
  stream_write y x sid' data ch = (y', evs) -> WF y ->
  (forall q w, sview y = Some (q, w, false) -> w <> 2) -> does false y y' (ev_frames evs) [] [].
Proof.
  unfold stream_write. intros H Hwf Hw2.
  destruct (lookup sid' (se_objs (sess y x))) as [st|] eqn:El; [|injection H as <- <-; apply does_refl].
  destruct (st_closed st) eqn:Ecl; [injection H as <- <-; apply does_refl|].
  destruct (write_loop _ y x sid' data 0 ch) as [[[[y1 ch1] evs1] n1] rc1] eqn:Ew. injection H as <- <-.
  rewrite ev_frames_ret. destruct (side_eqb x s && (sid' =? sid)) eqn:Es.
  - apply andb_prop in Es as [E1 E2]. apply side_eqb_eq in E1. subst x. assert (sid' = sid) by lia. subst sid'.
    assert (Hsv : sview y = Some (st_seq st, st_wcl st, false)).
    { rewrite sview_def, El. cbn. unfold sv. now rewrite Ecl. }
    exact (write_loop_self _ _ _ _ _ _ _ _ _ _ _ _ Ew Hwf Hsv (Hw2 _ _ Hsv)).
  - destruct (write_loop_other _ _ _ _ _ _ _ _ _ _ _ _ Ew Es) as [Hq Hf]. rewrite Hf. now apply does_quiet.
Qed.

Lemma try_read_effect y x sid' k y' rc d :
  try_read y x sid' k = Some (y', rc, d) ->
  does false y y' [] (if side_eqb x o && (sid' =? sid) then d else []) [].
Proof.
  unfold try_read. intros H.
  assert (Hnil : forall yy, yy = y -> d = [] -> does false y yy [] (if side_eqb x o && (sid' =? sid) then d else []) []).
  { intros yy -> ->. destruct (_ && _); apply does_refl. }
  destruct (lookup sid' (se_objs (sess y x))) as [st|] eqn:El; [|injection H as <- <- <-; apply Hnil; reflexivity].
  destruct k as [|k]; [injection H as <- <- <-; apply Hnil; reflexivity|].
  destruct (rb_read (st_rb st) (S k)) as [rb' [dd| |]] eqn:Er; try discriminate;
    injection H as <- <- <-; try (apply Hnil; reflexivity).
  destruct (side_eqb x o && (sid' =? sid)) eqn:Es.
  - destruct (view_put_obj y x sid' (st_set_rb st rb')) as (Hi & Hs & Hr). cbv zeta in *. rewrite Es in Hr.
    apply andb_prop in Es as [E1 E2]. apply side_eqb_eq in E1. subst x. assert (sid' = sid) by lia. subst sid'.
    rewrite side_eqb_os in Hs. rewrite <- (app_nil_r dd). apply (does_step false y (ARead (S k) dd)).
    apply (VRead _ _ _ _ _ (st_rb st) (st_closed st) (S k) dd rb'); [|exact Er|exact Hr|exact Hi|exact Hs].
    rewrite rview_def, El. reflexivity.
  - apply does_quiet, (quiet_put_obj y x sid' st); [exact El|intros _; left; reflexivity|congruence].
Qed.

Lemma try_accept_quiet y x y' rc id : try_accept y x = Some (y', rc, id) -> quiet y y'.
Proof.
  unfold try_accept. intros H. destruct (se_acceptq (sess y x)).
  - destruct (se_closed (sess y x)); [injection H as <- <- <-; apply quiet_refl|discriminate].
  - injection H as <- <- <-. apply quiet_set_sess_same_objs. reflexivity.
Qed.

Lemma fire_timers_silent fuel y x ch y' ch' evs : fire_timers fuel y x ch = (y', ch', evs) -> silent y y' evs.
Proof.
  apply (fire_timers_ind (fun a e b => silent a b e));
    [apply silent_refl|intros; eapply silent_trans; eauto| |intros; eapply session_close_silent; eauto].
  intros y0 ts. apply silent_quiet, quiet_set_sess_same_objs. reflexivity.
Qed.

(* data handed to the reader of this direction, read off the events *)
Definition ev_pend_reads (evs : list ev) : list N :=
  flat_map (fun e => match e with
                     | EPend (PRead x sid' _) _ _ d => if side_eqb x o && (sid' =? sid) then d else []
                     | _ => [] end) evs.
Definition ret_data (evs : list ev) : list N :=
  flat_map (fun e => match e with ERet _ _ d => d | _ => [] end) evs.
Definition step_reads (l : label) (evs : list ev) : list N :=
  (match l with
   | LRead x sid' _ => if side_eqb x o && (sid' =? sid) then ret_data evs else []
   | _ => []
   end) ++ ev_pend_reads evs.
(* the part of step_reads that the label's own call contributes *)
Definition core_reads (l : label) (evs : list ev) : list N :=
  match l with LRead x sid' _ => if side_eqb x o && (sid' =? sid) then ret_data evs else [] | _ => [] end.
Lemma ev_pend_reads_app a b : ev_pend_reads (a ++ b) = ev_pend_reads a ++ ev_pend_reads b.
Proof. unfold ev_pend_reads. apply flat_map_app. Qed.
Lemma ret_data_app a b : ret_data (a ++ b) = ret_data a ++ ret_data b.
Proof. unfold ret_data. apply flat_map_app. Qed.

Lemma resolve_effect ps y y' ps' evs :
  resolve ps y = (y', ps', evs) ->
  does false y y' [] (ev_pend_reads evs) [] /\ ev_frames evs = [] /\ ret_data evs = [].
Proof.
  apply (resolve_ind (fun a e b => does false a b [] (ev_pend_reads e) [] /\ ev_frames e = [] /\ ret_data e = [])).
  - intros y0. split; [apply does_refl|split; reflexivity].
  - intros y0 e1 y1 e2 y2 (D1 & F1 & R1) (D2 & F2 & R2).
    rewrite ev_pend_reads_app, ev_frames_app, ret_data_app, F1, F2, R1, R2.
    split; [exact (does_trans _ _ _ _ _ _ _ _ _ _ D1 D2)|split; reflexivity].
  - intros y0 x sid' k y1 rc d Et. split; [|split; reflexivity].
    cbn. rewrite app_nil_r. exact (try_read_effect _ _ _ _ _ _ _ Et).
  - intros y0 x y1 rc id Et. split; [|split; reflexivity]. eapply does_quiet, try_accept_quiet; eauto.
Qed.

Lemma resolve_no_ret ps y y' ps' evs : resolve ps y = (y', ps', evs) -> ret_data evs = [].
Proof. intros H. now destruct (resolve_effect _ _ _ _ _ H) as (_ & _ & Hd). Qed.

Lemma wire_no_reads evs : wire_only evs -> ev_pend_reads evs = [] /\ ret_data evs = [].
Proof.
  induction 1 as [|e t He Ht [IH1 IH2]]; [split; reflexivity|].
  destruct e; try contradiction; cbn; split; assumption.
Qed.

Lemma step_core_no_pend y l ch y' evs : step_core y l ch = (y', evs) -> ev_pend_reads evs = [].
Proof.
  intros H. destruct (step_core_shape (fun _ => True) (fun _ _ => I) y l ch _ _ H (fun _ _ _ _ _ => I)) as (evs0 & rc & n & d & -> & Hw).
  rewrite <- wire_only_wires in Hw. rewrite ev_pend_reads_app. now destruct (wire_no_reads evs0 Hw) as [-> _].
Qed.

Lemma inflight_dequeue y x c cn fr q :
  nthN c (sy_conns y) = Some cn -> conn_q cn x = fr :: q ->
  Permutation (inflight y)
    ((if side_eqb x o && keep fr then [fr] else []) ++ inflight (set_conns y (setN c (conn_set_q cn x q) (sy_conns y)))).
Proof.
  intros Hn Hq. unfold MuxView.inflight. fold o. cbn [sy_conns set_conns].
  apply (flat_map_setN_perm _ _ _ cn _ _ [] (filter keep (conn_q (conn_set_q cn x q) o))); [exact Hn| |reflexivity].
  destruct (side_cases x s) as [->| ->].
  - rewrite side_eqb_so. cbn [andb app]. unfold o. now rewrite conn_q_set_q_other.
  - fold o in Hq |- *. rewrite side_eqb_refl, conn_q_set_q_same, Hq. cbn [andb filter]. destruct (keep fr); reflexivity.
Qed.

(* a connection reset: what was in flight on it is gone *)
Lemma conn_reset_drop y c cn :
  nthN c (sy_conns y) = Some cn ->
  vstep true y (ADrop (filter keep (conn_q cn o)))
    (set_conns y (setN c (mkC [] [] (c_clA cn) (c_clB cn) true) (sy_conns y))).
Proof.
  intros En. apply VDrop; [reflexivity| |apply sview_set_conns|apply rview_set_conns].
  unfold MuxView.inflight. fold o. cbn [sy_conns set_conns].
  apply (flat_map_setN_perm (fun c0 : conn => filter keep (conn_q c0 o)) _ _ cn _ _ [] []);
    [exact En|now rewrite app_nil_r|destruct o; reflexivity].
Qed.

Lemma step_reads_split l ec er : ev_pend_reads ec = [] -> ret_data er = [] ->
  step_reads l (ec ++ er) = core_reads l ec ++ ev_pend_reads er.
Proof.
  intros Hp Hd. unfold step_reads. rewrite ev_pend_reads_app, Hp. cbn [app]. f_equal.
  destruct l; try reflexivity. cbn. destruct (_ && _); [|reflexivity]. now rewrite ret_data_app, Hd, app_nil_r.
Qed.

(* one label = its core part, then resolve; frames and reads of the label split accordingly *)
Lemma step_split y l ch y' evs :
  step y l ch = (y', evs) ->
  exists yc ec yr ps er,
    step_core y l ch = (yc, ec) /\ resolve (sy_pend yc) yc = (yr, ps, er) /\ y' = set_pend yr ps /\
    ev_frames evs = ev_frames ec ++ ev_frames er /\
    step_reads l evs = core_reads l ec ++ ev_pend_reads er.
Proof.
  unfold step. intros H. destruct (step_core y l ch) as [yc ec] eqn:Ec.
  destruct (resolve (sy_pend yc) yc) as [[yr ps] er] eqn:Er. injection H as <- <-.
  exists yc, ec, yr, ps, er. split; [reflexivity|split; [exact Er|split; [reflexivity|split; [apply ev_frames_app|]]]].
  exact (step_reads_split _ _ _ (step_core_no_pend _ _ _ _ _ Ec) (resolve_no_ret _ _ _ _ _ Er)).
Qed.

(* only a connection reset lets frames leave the wire unprocessed *)
Definition droppy (l : label) : bool := match l with LFail _ | LBreak _ => true | _ => false end.

(* a frame of this direction at the head of connection c is taken off the wire for the receiver *)
Lemma pop_view y c cn fr q :
  nthN c (sy_conns y) = Some cn -> conn_q cn o = fr :: q -> keep fr = true ->
  let y1 := set_conns y (setN c (conn_set_q cn o q) (sy_conns y)) in
  Permutation (inflight y) (fr :: inflight y1) /\ sview y1 = sview y /\ rview y1 = rview y.
Proof.
  intros Hn Hq Hk. split; [|split; [apply sview_set_conns|apply rview_set_conns]].
  pose proof (inflight_dequeue y o c cn fr q Hn Hq) as H. now rewrite side_eqb_refl, Hk in H.
Qed.

(* the core part of a label that hands no frame of this direction to the receiver's session *)
Definition plain_effect (l : label) (y y' : sys) (evs : list ev) : Prop :=
  does (droppy l) y y' (ev_frames evs) (core_reads l evs) [].

(* the blocks a label runs, reporting evs0, then the result of the label's own call *)
Lemma plain_ret l y y' evs0 c n :
  does (droppy l) y y' (ev_frames evs0) (core_reads l evs0) [] -> plain_effect l y y' (evs0 ++ [ERet c n []]).
Proof.
  intros H. unfold plain_effect. rewrite ev_frames_ret.
  replace (core_reads l (evs0 ++ [ERet c n []])) with (core_reads l evs0); [exact H|].
  destruct l; try reflexivity. cbn. destruct (_ && _); [|reflexivity]. rewrite ret_data_app. cbn. now rewrite app_nil_r.
Qed.
Lemma plain_quiet l y y' evs0 c n :
  silent y y' evs0 -> core_reads l evs0 = [] -> plain_effect l y y' (evs0 ++ [ERet c n []]).
Proof. intros [Hq Hf] Hc. apply plain_ret. rewrite Hf, Hc. now apply does_quiet. Qed.
Lemma plain_none l y c n : plain_effect l y y [ERet c n []].
Proof.
  apply (plain_quiet l y y []); [apply silent_refl|]. destruct l; try reflexivity. cbn. destruct (_ && _); reflexivity.
Qed.

(* one label before resolve: either plain, or the head frame fr of a connection, a frame of this
   direction, is taken off the wire and handed to the receiver's session, which writes it into
   the re-sequencer or drops it *)
Lemma step_core_effect y l ch y' evs :
  step_core y l ch = (y', evs) -> WF y ->
  (forall x, l = LOpen x -> lookup (se_nextsid (sess y x)) (se_objs (sess y x)) = None) ->
  (forall q w, sview y = Some (q, w, false) -> w <> 2) ->
  plain_effect l y y' evs \/
  exists c cn fr q ar,
    l = LDeliver o c /\ nthN (N.to_nat c) (sy_conns y) = Some cn /\ conn_q cn o = fr :: q /\ keep fr = true /\
    does false (set_conns y (setN (N.to_nat c) (conn_set_q cn o q) (sy_conns y))) y' (ev_frames evs) [] ar /\
    (ar = [fr] \/ ar = []).
Proof.
  intros H Hwf Hfresh Hw2.
  destruct l as [x|x sid' data|x sid' k|x|x sid'|x|x c|c|d|c|x c].
  - rewrite step_core_open in H.
    destruct (open_stream_effect _ _ _ _ H (Hfresh x eq_refl)) as (Hd & c & n & ->). left. exact Hd.
  - rewrite step_core_write in H. left. exact (stream_write_effect _ _ _ _ _ _ _ H Hwf Hw2).
  - rewrite step_core_read in H. left.
    destruct (has_pending_read _ _ _); [injection H as <- <-; apply plain_none|].
    destruct (try_read y x sid' k) as [[[y1 rc] dd]|] eqn:Et; injection H as <- <-.
    + unfold plain_effect.
      replace (core_reads _ _) with (if side_eqb x o && (sid' =? sid) then dd else []);
        [exact (try_read_effect _ _ _ _ _ _ _ Et)|].
      cbn. destruct (_ && _); [now rewrite app_nil_r|reflexivity].
    + apply (plain_quiet _ _ _ []); [apply silent_quiet, quiet_set_pend|].
      cbn. destruct (_ && _); reflexivity.
  - rewrite step_core_accept in H. left.
    destruct (se_closed (sess y x)); [injection H as <- <-; apply plain_none|].
    destruct (try_accept y x) as [[[y1 rc] id]|] eqn:Et.
    + injection H as <- <-. apply (plain_quiet _ _ _ []); [eapply silent_quiet, try_accept_quiet; eauto|reflexivity].
    + destruct (has_pending_accept _ _); injection H as <- <-; [apply plain_none|].
      apply (plain_quiet _ _ _ []); [apply silent_quiet, quiet_set_pend|reflexivity].
  - rewrite step_core_close_stream in H. left.
    destruct (close_stream y x sid' true ch) as [[[y1 ch1] e1] rc] eqn:Ec. injection H as <- <-.
    destruct (side_eqb x s && (sid' =? sid)) eqn:Es.
    + apply andb_prop in Es as [E1 E2]. apply side_eqb_eq in E1. subst x. assert (sid' = sid) by lia. subst sid'.
      apply plain_ret. exact (close_stream_self _ _ _ _ _ _ Ec Hwf).
    + assert (Hne : side_eqb x s && (sid' =? sid) && true = false) by (rewrite Es; reflexivity).
      apply plain_quiet; [eapply close_stream_silent; eauto|reflexivity].
  - rewrite step_core_close_session in H. left.
    destruct (session_close y x ch) as [[[y1 ch1] e1] rc] eqn:Ec. injection H as <- <-.
    apply plain_quiet; [eapply session_close_silent; eauto|reflexivity].
  - rewrite step_core_deliver in H.
    destruct (nthN (N.to_nat c) (sy_conns y)) as [cn|] eqn:En; [|injection H as <- <-; left; apply plain_none].
    destruct (_ || _); [injection H as <- <-; left; apply plain_none|].
    destruct (conn_q cn x) as [|fr q] eqn:Eq.
    + left. destruct (conn_closed_end cn (other x)); [|injection H as <- <-; apply plain_none].
      destruct (deplex_error y x c) as [y1 e1] eqn:Ed. injection H as <- <-.
      apply plain_quiet; [eapply deplex_error_silent; eauto|reflexivity].
    + set (y1 := set_conns y (setN (N.to_nat c) (conn_set_q cn x q) (sy_conns y))) in *.
      pose proof (WF_set_q y x _ cn q Hwf En) as Hwf1. fold y1 in Hwf1.
      destruct (recv_frame y1 x fr ch) as [[y2 ch2] e2] eqn:Er. injection H as <- <-.
      destruct (recv_frame_effect _ _ _ _ _ _ _ Er Hwf1) as (ar & Hd & Hf & Ha).
      pose proof (inflight_dequeue y x (N.to_nat c) cn fr q En Eq) as Hdq. fold y1 in Hdq.
      destruct (side_eqb x o && keep fr) eqn:Ek.
      * apply andb_prop in Ek as [E1 E2]. apply side_eqb_eq in E1. subst x.
        right. exists c, cn, fr, q, ar. rewrite ev_frames_ret, Hf. repeat (split; [assumption||reflexivity|]).
        destruct Ha as [Ha|(_ & _ & Ha)]; [right|left]; exact Ha.
      * (* the frame that is taken off the wire is not one of this direction *)
        left. apply plain_ret. rewrite Hf.
        assert (Har : ar = []).
        { destruct Ha as [Ha|(Hx & Hk & _)]; [exact Ha|]. subst x. rewrite side_eqb_refl, Hk in Ek. discriminate. }
        subst ar. refine (does_trans _ _ _ _ _ _ _ _ _ _ (does_quiet _ _ _ _) Hd).
        split; [exact Hdq|]. split; left; [apply sview_set_conns|apply rview_set_conns].
  - rewrite step_core_fail in H. left.
    destruct (nthN (N.to_nat c) (sy_conns y)) as [cn|] eqn:En; [|injection H as <- <-; apply plain_none].
    cbv zeta in H.
    set (y0 := set_conns y (setN (N.to_nat c) (mkC [] [] (c_clA cn) (c_clB cn) true) (sy_conns y))) in *.
    pose proof (conn_reset_drop y (N.to_nat c) cn En) as Hdrop. fold y0 in Hdrop.
    destruct (if conn_closed_end cn SA || c_failed cn then (y0, []) else deplex_error y0 SA c) as [ya ea] eqn:Ea.
    assert (Ha' : silent y0 ya ea).
    { destruct (conn_closed_end cn SA || c_failed cn); [injection Ea as <- <-; apply silent_refl|].
      eapply deplex_error_silent; eauto. }
    destruct (if conn_closed_end cn SB || c_failed cn then (ya, []) else deplex_error ya SB c) as [yb eb] eqn:Eb.
    assert (Hb' : silent ya yb eb).
    { destruct (conn_closed_end cn SB || c_failed cn); [injection Eb as <- <-; apply silent_refl|].
      eapply deplex_error_silent; eauto. }
    injection H as <- <-. destruct (silent_trans _ _ _ _ _ Ha' Hb') as [Hq Hf]. rewrite app_assoc.
    apply plain_ret. rewrite Hf. eapply does_then_quiet; [|exact Hq]. exact (does_step true _ _ _ Hdrop).
  - rewrite step_core_tick in H. left.
    destruct (fire_timers 64 (set_now y (sy_now y + d)%Z) SA ch) as [[ya cha] ea] eqn:Ea.
    destruct (fire_timers 64 ya SB cha) as [[yb chb] eb] eqn:Eb. injection H as <- <-.
    rewrite app_assoc. apply plain_quiet; [|reflexivity]. eapply silent_after; [apply quiet_set_now|].
    eapply silent_trans; eapply fire_timers_silent; eauto.
  - rewrite step_core_break in H. left.
    destruct (nthN (N.to_nat c) (sy_conns y)) as [cn|] eqn:En; injection H as <- <-; [|apply plain_none].
    apply (plain_ret _ _ _ []). exact (does_step true _ _ _ (conn_reset_drop y (N.to_nat c) cn En)).
  - rewrite step_core_notice in H. left.
    destruct (nthN (N.to_nat c) (sy_conns y)) as [cn|] eqn:En; [|injection H as <- <-; apply plain_none].
    destruct (_ && _); [|injection H as <- <-; apply plain_none].
    destruct (deplex_error y x c) as [y1 e1] eqn:Ed. injection H as <- <-.
    apply plain_quiet; [eapply deplex_error_silent; eauto|reflexivity].
Qed.
End Effect.
