(* Proofs about Model/Dispatch.v: exactly which first packets become sessions (C07), that every
   other one is handed to the redirect target untouched and un-answered (C09), the window edges,
   and that no index panic can escape. *)
From Coq Require Import NArith ZArith List Bool Arith Lia.
From Coq Require Import ZifyN ZifyNat ZifyBool.
From Cloak Require Import Gen.Consts Model.Hello Model.FirstPacket Model.Dispatch Model.LowOrder Proofs.Hello Proofs.FirstPacket.
Import ListNotations.
Local Open Scope N_scope.

Lemma mem_bytes_iff : forall k l, mem_bytes k l = true <-> In k l.
Proof.
  intros k l. unfold mem_bytes. rewrite existsb_exists. split.
  - intros (x & Hin & E). apply bytes_eqb_iff in E. subst. exact Hin.
  - intros Hin. exists k. split; auto. apply bytes_eqb_iff. reflexivity.
Qed.

Lemma rerr_eq_RNone : forall x : rerr, x = RNone \/ x <> RNone.
Proof. intros []; auto; right; discriminate. Qed.

Lemma psub_ok : forall lo hi p, (lo <= hi)%nat -> (hi <= length p)%nat ->
  psub lo hi p = Ok (firstn (hi - lo) (skipn lo p)).
Proof.
  intros lo hi p H1 H2. unfold psub. apply Nat.leb_le in H1, H2. rewrite H1, H2. reflexivity.
Qed.
Lemma psub_inv : forall lo hi p x, psub lo hi p = Ok x ->
  (hi <= length p)%nat /\ x = firstn (hi - lo) (skipn lo p).
Proof.
  intros lo hi p x H. unfold psub in H.
  destruct ((lo <=? hi)%nat && (hi <=? length p)%nat) eqn:E; [|discriminate].
  apply andb_prop in E as [_ E]. apply Nat.leb_le in E. inversion H. auto.
Qed.
Lemma pidx_ok : forall i p, (i < length p)%nat -> pidx i p = Ok (nth i p 0).
Proof.
  intros i p H. unfold pidx. destruct (nth_error p i) eqn:E.
  - f_equal. symmetry. apply nth_error_nth. exact E.
  - apply nth_error_None in E. lia.
Qed.
Lemma pidx_inv : forall i p x, pidx i p = Ok x -> (i < length p)%nat /\ x = nth i p 0.
Proof.
  intros i p x H. unfold pidx in H. destruct (nth_error p i) eqn:E; [|discriminate].
  inversion H; subst. split.
  - apply nth_error_Some. congruence.
  - symmetry. apply nth_error_nth. exact E.
Qed.

Lemma tolerance_180s : tolerance = (180 * ns_per_s)%Z.
Proof. reflexivity. Qed.

Lemma client_ns_small : forall ts, (Z.of_N ts < 2 ^ 62)%Z -> client_ns ts = (Z.of_N ts * ns_per_s)%Z.
Proof.
  intros ts H. unfold client_ns, int64_of, wrap64, unixToInternal, two63, two64, ns_per_s.
  change (2 ^ 62)%Z with 4611686018427387904%Z in H.
  assert (0 <= Z.of_N ts)%Z by lia.
  rewrite (Z.mod_small (Z.of_N ts + 9223372036854775808)) by lia.
  replace (Z.of_N ts + 9223372036854775808 - 9223372036854775808)%Z with (Z.of_N ts) by lia.
  rewrite (Z.mod_small (Z.of_N ts + 62135596800 + 9223372036854775808)) by lia.
  lia.
Qed.

Lemma in_window_iff : forall ts now, (Z.of_N ts < 2 ^ 62)%Z ->
  in_window ts now = true <->
  (now - tolerance < Z.of_N ts * ns_per_s /\ Z.of_N ts * ns_per_s < now + tolerance)%Z.
Proof.
  intros ts now H. unfold in_window. rewrite client_ns_small by exact H.
  rewrite andb_true_iff, !Z.ltb_lt. tauto.
Qed.

(* in whole seconds, as the code truncates the client's clock but not the server's *)
Lemma in_window_seconds : forall ts now, (Z.of_N ts < 2 ^ 62)%Z ->
  let sec := (now / ns_per_s)%Z in
  let nsec := (now mod ns_per_s)%Z in
  in_window ts now = true <->
  (sec - 180 < Z.of_N ts /\ (Z.of_N ts < sec + 180 \/ (Z.of_N ts = sec + 180 /\ 0 < nsec)))%Z.
Proof.
  intros ts now H sec nsec. rewrite in_window_iff by exact H. rewrite tolerance_180s.
  subst sec nsec. unfold ns_per_s.
  pose proof (Z.div_mod now 1000000000 ltac:(lia)) as Hdm.
  pose proof (Z.mod_pos_bound now 1000000000 ltac:(lia)) as Hb.
  remember (now / 1000000000)%Z as q. remember (now mod 1000000000)%Z as r. lia.
Qed.

Lemma window_edges : forall sec, (180 <= sec)%Z -> (sec + 181 < 2 ^ 62)%Z ->
  let now := (sec * ns_per_s)%Z in
  in_window (Z.to_N (sec + 180)) now = false /\ in_window (Z.to_N (sec - 180)) now = false /\
  in_window (Z.to_N (sec + 179)) now = true /\ in_window (Z.to_N (sec - 179)) now = true /\
  (forall ns, (0 < ns < ns_per_s)%Z ->
     in_window (Z.to_N (sec + 180)) (now + ns) = true /\ in_window (Z.to_N (sec - 179)) (now + ns) = true /\
     in_window (Z.to_N (sec - 180)) (now + ns) = false /\ in_window (Z.to_N (sec + 181)) (now + ns) = false).
Proof.
  intros sec H1 H2 now. subst now.
  change (2 ^ 62)%Z with 4611686018427387904%Z in H2.
  assert (forall ts nw, (0 <= ts < 4611686018427387904)%Z ->
            in_window (Z.to_N ts) nw = ((nw - tolerance <? ts * ns_per_s) && (ts * ns_per_s <? nw + tolerance))%Z) as W.
  { intros ts nw Hts. unfold in_window. rewrite client_ns_small, Z2N.id by (rewrite ?Z2N.id; lia). reflexivity. }
  unfold tolerance, server_timestampTolerance_ns, ns_per_s in *.
  repeat split; rewrite W by lia; lia.
Qed.

Definition pt_uid (pt : list N) : list N := firstn 16 pt.
Definition pt_method (pt : list N) : list N := trim0 (firstn 12 (skipn 16 pt)).
Definition pt_enc (pt : list N) : N := nth 28 pt 0.
Definition pt_ts (pt : list N) : N := be_val (firstn 8 (skipn 29 pt)).
Definition pt_sid (pt : list N) : N := be_val (firstn 4 (skipn 37 pt)).
Definition pt_unordered (pt : list N) : bool := N.testbit (nth 41 pt 0) 0.
Definition info_of (pt : list N) : client_info :=
  mkCI (pt_uid pt) (pt_sid pt) (pt_method pt) (pt_enc pt) (pt_unordered pt).

Definition is_session (d : decision) : Prop :=
  match d with AdminSession | ProxySession _ _ _ _ _ => True | _ => False end.

Section Decide.
  Variable dh : list N -> list N -> option (list N).
  Variable gcm_open : list N -> list N -> list N -> list N -> option (list N).
  (* the only fact about AES-GCM the absence of panics rests on: opening strips the 16-byte tag *)
  Hypothesis gcm_open_len : forall k n ct aad pt, gcm_open k n ct aad = Some pt -> (length pt + 16 = length ct)%nat.

  Lemma first_packet_shape : forall p pv fr, first_packet dh p pv = Ok fr -> frag_shape dh pv fr.
  Proof. intros [data|h] pv fr H; cbn in H; [eapply tls_fragments_shape | eapply ws_fragments_shape]; eauto. Qed.

  Lemma first_packet_total : forall p pv, safe (first_packet dh p pv).
  Proof. intros [data|h] pv; cbn; [apply tls_first_packet_total | apply ws_first_packet_total]. Qed.

  (* THE credential: the sealed block of the packet opens, under X25519(static private, ephemeral value of
     the packet) with nonce = the first 12 bytes of that value, to a plaintext whose timestamp is strictly
     inside the window, and the ephemeral value has not been presented before *)
  Definition valid_cloak (p : packet) (st : server_state) (now : Z) (ci : client_info) : Prop :=
    exists fr sh pt,
      first_packet dh p (st_staticPv st) = Ok fr /\
      dh (st_staticPv st) (f_rand fr) = Some sh /\ f_shared fr = copy_into 32 sh /\
      mem_bytes (mask255 (f_rand fr)) (st_usedRandom st) = false /\
      gcm_open (f_shared fr) (firstn 12 (f_rand fr)) (f_ct fr) [] = Some pt /\ length pt = 48%nat /\
      in_window (pt_ts pt) now = true /\
      ci = info_of pt.

  (* decryptClientInfo once the block has opened: 48 bytes, every index in range, only the window left to check *)
  Lemma decrypt_opened : forall fr now pt, length (f_ct fr) = 64%nat ->
    gcm_open (f_shared fr) (firstn 12 (f_rand fr)) (f_ct fr) [] = Some pt ->
    length pt = 48%nat /\
    decryptClientInfo gcm_open fr now = if in_window (pt_ts pt) now then DOk (info_of pt) else DFail RWindow.
  Proof.
    intros fr now pt Hct G. pose proof (gcm_open_len _ _ _ _ _ G) as Hlen. rewrite Hct in Hlen.
    split; [lia|]. unfold decryptClientInfo. rewrite G.
    rewrite (psub_ok 0 16), (psub_ok 16 28), (pidx_ok 28), (pidx_ok 41), (psub_ok 29 37) by lia.
    cbn [bind]. rewrite (psub_ok 37 41) by lia.
    change (be_val (firstn (37 - 29) (skipn 29 pt))) with (pt_ts pt).
    destruct (in_window (pt_ts pt) now); reflexivity.
  Qed.

  Lemma decrypt_ok_iff : forall fr now ci, length (f_ct fr) = 64%nat ->
    decryptClientInfo gcm_open fr now = DOk ci <->
    exists pt, gcm_open (f_shared fr) (firstn 12 (f_rand fr)) (f_ct fr) [] = Some pt /\ length pt = 48%nat /\
               in_window (pt_ts pt) now = true /\ ci = info_of pt.
  Proof.
    intros fr now ci Hct.
    destruct (gcm_open (f_shared fr) (firstn 12 (f_rand fr)) (f_ct fr) []) as [pt|] eqn:G.
    - destruct (decrypt_opened fr now pt Hct G) as [L ->]. split.
      + destruct (in_window (pt_ts pt) now) eqn:W; [|discriminate]. intros H. inversion H. exists pt. auto.
      + intros (pt' & E & _ & W & ->). inversion E; subst. rewrite W. reflexivity.
    - unfold decryptClientInfo. rewrite G. split; [discriminate | intros (pt & E & _); discriminate].
  Qed.

  Lemma decrypt_no_panic : forall fr now, length (f_ct fr) = 64%nat -> decryptClientInfo gcm_open fr now <> DPanic.
  Proof.
    intros fr now Hct.
    destruct (gcm_open (f_shared fr) (firstn 12 (f_rand fr)) (f_ct fr) []) as [pt|] eqn:G.
    - destruct (decrypt_opened fr now pt Hct G) as [_ ->]. destruct (in_window (pt_ts pt) now); discriminate.
    - unfold decryptClientInfo. rewrite G. discriminate.
  Qed.

  Lemma auth_ok_iff : forall p st now ci,
    auth_first_packet dh gcm_open p st now = DOk ci <-> valid_cloak p st now ci.
  Proof.
    intros p st now ci. unfold auth_first_packet, valid_cloak.
    destruct (first_packet dh p (st_staticPv st)) as [fr|e|] eqn:F.
    2:{ split; [discriminate | intros (? & ? & ? & E & _); discriminate]. }
    2:{ split; [discriminate | intros (? & ? & ? & E & _); discriminate]. }
    destruct (first_packet_shape _ _ _ F) as (Lr & Lc & Ls & sh & Edh & Esh).
    unfold register_random. cbn [fst].
    destruct (mem_bytes (mask255 (f_rand fr)) (st_usedRandom st)) eqn:U.
    - split; [discriminate|]. intros (fr' & ? & ? & E & _ & _ & U' & _). inversion E; subst. congruence.
    - rewrite decrypt_ok_iff by exact Lc. split.
      + intros (pt & G & L & W & E). exists fr, sh, pt. repeat split; auto.
      + intros (fr' & sh' & pt & E & _ & _ & _ & G & L & W & Eci). inversion E; subst. exists pt. auto.
  Qed.

  Lemma auth_no_panic : forall p st now, auth_first_packet dh gcm_open p st now <> DPanic.
  Proof.
    intros p st now. unfold auth_first_packet.
    destruct (first_packet_total p (st_staticPv st)) as [Hp _].
    destruct (first_packet dh p (st_staticPv st)) as [fr|e|] eqn:F; try discriminate; try congruence.
    destruct (fst _); [discriminate|].
    apply decrypt_no_panic. destruct (first_packet_shape _ _ _ F) as (_ & Lc & _). exact Lc.
  Qed.

  Lemma decide_no_crash : forall p st now, decide dh gcm_open p st now <> Crash.
  Proof.
    intros p st now. unfold decide.
    pose proof (auth_no_panic p st now) as Hp.
    destruct (auth_first_packet dh gcm_open p st now) as [ci|r|]; try discriminate; try congruence.
    destruct (negb _); [discriminate|]. destruct (is_admin st ci); [discriminate|].
    destruct (negb _); [discriminate|]. destruct (get_user st (ci_uid ci) now); [|discriminate].
    destruct (get_session st a (ci_sid ci) now); discriminate.
  Qed.

  Definition admin_ok (st : server_state) (ci : client_info) : Prop :=
    st_adminUID st <> [] /\ ci_uid ci = st_adminUID st /\ ci_sid ci = 0.
  Definition user_active (st : server_state) (uid : list N) : Prop :=
    exists a, find_active uid (st_active st) = Some a.
  Definition db_authorises (st : server_state) (uid : list N) (now : Z) : Prop :=
    exists u, db_get uid (st_db st) = Some u /\
      (0 < u_upCredit u /\ 0 < u_downCredit u /\ now_unix now <= u_expiry u)%Z.

  Lemma is_admin_iff : forall st ci, is_admin st ci = true <-> admin_ok st ci.
  Proof using.
    intros st ci. unfold is_admin, admin_ok. rewrite !andb_true_iff, negb_true_iff, bytes_eqb_iff, N.eqb_eq.
    rewrite Nat.eqb_neq. split.
    - intros [[H1 H2] H3]. repeat split; auto. intros E. rewrite E in H1. exact (H1 eq_refl).
    - intros (H1 & H2 & H3). repeat split; auto. destruct (st_adminUID st); cbn; [congruence | discriminate].
  Qed.

  Lemma authenticate_iff : forall st uid now, authenticate st uid now = true <-> db_authorises st uid now.
  Proof.
    intros st uid now. unfold authenticate, db_authorises.
    destruct (db_get uid (st_db st)) as [u|].
    - rewrite !andb_true_iff, !Z.ltb_lt, Z.leb_le. split.
      + intros [[A B] C]. exists u. auto.
      + intros (u' & E & A & B & C). inversion E; subst. auto.
    - split; [discriminate | intros (u & E & _); discriminate].
  Qed.

  Lemma get_user_some_iff : forall st uid now,
    (exists a, get_user st uid now = Some a) <->
    (user_active st uid \/ In uid (st_bypass st) \/ db_authorises st uid now).
  Proof.
    intros st uid now. unfold get_user, user_active.
    destruct (find_active uid (st_active st)) as [a|] eqn:Fa.
    - split; [intros _; left; eauto | intros _; eauto].
    - destruct (mem_bytes uid (st_bypass st)) eqn:Mb.
      + apply mem_bytes_iff in Mb. split; [intros _; right; left; exact Mb | intros _; eauto].
      + destruct (authenticate st uid now) eqn:Au.
        * apply authenticate_iff in Au. split; [intros _; right; right; exact Au | intros _; eauto].
        * split; [intros (a & E); discriminate|].
          intros [(a & E) | [Hb | Hd]]; [discriminate | | ].
          -- apply mem_bytes_iff in Hb. congruence.
          -- apply authenticate_iff in Hd. congruence.
  Qed.

  (* sessions: exactly the valid credentials of authorised users *)
  Lemma decide_admin_iff : forall p st now,
    decide dh gcm_open p st now = AdminSession <->
    exists ci, valid_cloak p st now ci /\ known_enc (ci_enc ci) = true /\ admin_ok st ci.
  Proof.
    intros p st now. unfold decide. split.
    - destruct (auth_first_packet dh gcm_open p st now) as [ci|r|] eqn:A; try discriminate.
      destruct (known_enc (ci_enc ci)) eqn:K; [|discriminate]. destruct (is_admin st ci) eqn:Ad; cbn [negb].
      + intros _. exists ci. rewrite <- auth_ok_iff, <- is_admin_iff. auto.
      + destruct (negb _); [discriminate|]. destruct (get_user st (ci_uid ci) now); [|discriminate].
        destruct (get_session st a (ci_sid ci) now); discriminate.
    - intros (ci & V & K & Ad). apply auth_ok_iff in V. apply is_admin_iff in Ad. rewrite V, K, Ad. reflexivity.
  Qed.

  Lemma decide_proxy_iff : forall p st now uid sid m enc un,
    decide dh gcm_open p st now = ProxySession uid sid m enc un <->
    exists ci, valid_cloak p st now ci /\ known_enc (ci_enc ci) = true /\ ~ admin_ok st ci /\
      In (ci_method ci) (st_proxyBook st) /\
      (exists a, get_user st (ci_uid ci) now = Some a /\ get_session st a (ci_sid ci) now = true) /\
      uid = ci_uid ci /\ sid = ci_sid ci /\ m = ci_method ci /\ enc = ci_enc ci /\ un = ci_unordered ci.
  Proof.
    intros p st now uid sid m enc un. unfold decide. split.
    - destruct (auth_first_packet dh gcm_open p st now) as [ci|r|] eqn:A; try discriminate.
      destruct (known_enc (ci_enc ci)) eqn:K; [|discriminate]. destruct (is_admin st ci) eqn:Ad; [discriminate|].
      destruct (mem_bytes (ci_method ci) (st_proxyBook st)) eqn:Mb; [|discriminate]. cbn [negb].
      destruct (get_user st (ci_uid ci) now) as [a|] eqn:Gu; [|discriminate].
      destruct (get_session st a (ci_sid ci) now) eqn:Gs; [|discriminate].
      intros D. inversion D; subst. exists ci. rewrite <- auth_ok_iff, <- is_admin_iff, <- mem_bytes_iff, Ad.
      repeat split; auto. exists a. auto.
    - intros (ci & V & K & Hna & Hin & (a & Gu & Gs) & -> & -> & -> & -> & ->).
      apply auth_ok_iff in V. apply mem_bytes_iff in Hin. rewrite <- is_admin_iff in Hna.
      rewrite V, K, Hin, Gu, Gs. destruct (is_admin st ci); [contradiction | reflexivity].
  Qed.

  (* everything else is ordinary web traffic (or, for an authorised user refused a new session, dropped) *)
  Lemma decide_else : forall p st now,
    ~ is_session (decide dh gcm_open p st now) ->
    (exists r, decide dh gcm_open p st now = Redirect r) \/ decide dh gcm_open p st now = DropConn.
  Proof.
    intros p st now H. pose proof (decide_no_crash p st now) as Hc.
    destruct (decide dh gcm_open p st now); cbn in H; try tauto; eauto; congruence.
  Qed.

  Variable http_hidden : list N -> option (list N).

  (* dispatch_conn is a function of readFirstPacket's error, its redirect flag and the decision *)
  Lemma dispatch_read_ok : forall s e st now, r_err (rfp s e) = RNone ->
    dispatch_conn dh gcm_open http_hidden s e st now =
    match decide dh gcm_open (packet_of http_hidden (rfp s e)) st now with
    | Redirect _ => OWeb (first_data (rfp s e)) (r_rest (rfp s e))
    | AdminSession => OSession AdminSession
    | ProxySession u i m c f => OSession (ProxySession u i m c f)
    | DropConn => ODrop
    | Crash => OCrash
    end.
  Proof. intros s e st now E. unfold dispatch_conn. rewrite E. reflexivity. Qed.

  Lemma dispatch_read_failed : forall s e st now, r_err (rfp s e) <> RNone ->
    dispatch_conn dh gcm_open http_hidden s e st now =
    if r_redir (rfp s e) then OWeb (first_data (rfp s e)) (r_rest (rfp s e)) else OClose.
  Proof. intros s e st now E. unfold dispatch_conn. destruct (r_err (rfp s e)); congruence. Qed.

  Lemma dispatch_no_server_byte : forall s e st now,
    let r := rfp s e in
    let o := dispatch_conn dh gcm_open http_hidden s e st now in
    (* the server originates bytes only towards sessions *)
    (server_writes o = true <->
       r_err r = RNone /\ is_session (decide dh gcm_open (packet_of http_hidden r) st now)) /\
    (* every rejection of a complete first packet hands the whole stream to the target *)
    (forall why, r_err r = RNone -> decide dh gcm_open (packet_of http_hidden r) st now = Redirect why ->
       o = OWeb (first_data r) (r_rest r) /\ first_data r ++ r_rest r = s) /\
    (* and so do the over-long / unrecognisable streams; a stream that ends early is closed *)
    (r_err r <> RNone -> (r_redir r = true -> o = OWeb (first_data r) (r_rest r) /\ first_data r ++ r_rest r = s)
                         /\ (r_redir r = false -> o = OClose)) /\
    o <> OCrash.
  Proof.
    intros s e st now r o.
    pose proof (relay_all fps s e fps_ge_5 : first_data r ++ r_rest r = s) as Hall.
    pose proof (decide_no_crash (packet_of http_hidden r) st now) as Hnc.
    pose proof (dispatch_read_ok s e st now) as Hok. pose proof (dispatch_read_failed s e st now) as Hfail.
    fold r o in Hok, Hfail.
    destruct (rerr_eq_RNone (r_err r)) as [Er|Er].
    - specialize (Hok Er). clear Hfail. rewrite Hok.
      destruct (decide dh gcm_open (packet_of http_hidden r) st now); cbn [server_writes is_session];
        repeat split; try tauto; try discriminate; try congruence; intros [_ []].
    - specialize (Hfail Er). clear Hok. rewrite Hfail.
      destruct (r_redir r); cbn [server_writes]; repeat split; try tauto; try discriminate; try congruence.
  Qed.

  Lemma else_no_server_byte : forall s e st now,
    ~ is_session (decide dh gcm_open (packet_of http_hidden (rfp s e)) st now) ->
    server_writes (dispatch_conn dh gcm_open http_hidden s e st now) = false.
  Proof.
    intros s e st now H.
    destruct (dispatch_no_server_byte s e st now) as ((W & _) & _).
    destruct (server_writes (dispatch_conn dh gcm_open http_hidden s e st now)); auto.
    exfalso. apply H. apply W. reflexivity.
  Qed.

  (* per connection at most one of {relayed to the redirect target, answered by the server itself}; which one is
     decided by readFirstPacket and the decision alone *)
  Lemma one_outcome : forall s e st now,
    let r := rfp s e in
    let o := dispatch_conn dh gcm_open http_hidden s e st now in
    (relays o = true -> server_writes o = false) /\ (server_writes o = true -> relays o = false) /\
    (relays o = true <->
       (r_err r = RNone /\ exists why, decide dh gcm_open (packet_of http_hidden r) st now = Redirect why) \/
       (r_err r <> RNone /\ r_redir r = true)) /\
    (relays o = true -> o = OWeb (first_data r) (r_rest r) /\ first_data r ++ r_rest r = s).
  Proof.
    intros s e st now r o.
    pose proof (relay_all fps s e fps_ge_5 : first_data r ++ r_rest r = s) as Hall.
    split; [destruct o; cbn; auto; discriminate|]. split; [destruct o; cbn; auto; discriminate|].
    unfold o. destruct (rerr_eq_RNone (r_err r)) as [Er|Er].
    - (* the first packet was read: relayed exactly when the decision is a Redirect *)
      rewrite (dispatch_read_ok s e st now Er). fold r.
      destruct (decide dh gcm_open (packet_of http_hidden r) st now) as [why| | | |]; cbn [relays].
      1:{ split; [split; [left; eauto | reflexivity] | auto]. }
      all: split; [split; [discriminate | intros [[_ [why H]]|[H _]]; congruence] | discriminate].
    - (* the read failed: relayed exactly when readFirstPacket set its redirect flag *)
      rewrite (dispatch_read_failed s e st now Er). fold r.
      destruct (r_redir r); cbn [relays].
      + split; [split; [right; auto | reflexivity] | auto].
      + split; [split; [discriminate | intros [[H _]|[_ H]]; congruence] | discriminate].
  Qed.
End Decide.

Lemma unknown_method_is_web : forall dh gcm_open p st now ci,
  auth_first_packet dh gcm_open p st now = DOk ci -> known_enc (ci_enc ci) = true -> is_admin st ci = false ->
  ~ In (ci_method ci) (st_proxyBook st) ->
  decide dh gcm_open p st now = Redirect RMethod.
Proof.
  intros dh gcm_open p st now ci A K Ad Hn. unfold decide. rewrite A, K, Ad. cbn [negb].
  destruct (mem_bytes (ci_method ci) (st_proxyBook st)) eqn:Mb; [|reflexivity].
  apply mem_bytes_iff in Mb. contradiction.
Qed.

(* what the relay hands to either side is only ever the other side's bytes *)
Lemma goweb_bytes : forall data rest e d t,
  let w := goweb data rest e d t in
  (w_peer w = [] \/ w_peer w = t_reply t) /\ (w_target w = [] \/ w_target w = data ++ rest) /\
  (d <> DialOk -> w_peer_closed w = true /\ w_peer w = [] /\ w_target w = []).
Proof.
  intros data rest e d t. destruct d; cbn; repeat split; auto; try congruence.
  destruct (t_after t <=? length (data ++ rest))%nat; auto.
Qed.

Definition toy_dh (pv pub : list N) : option (list N) := Some (repeat 1 32).
Definition toy_gcm (k n ct aad : list N) : option (list N) :=
  if (16 <=? length ct)%nat then Some (firstn (length ct - 16) ct) else None.
Lemma toy_gcm_len : forall k n ct aad pt, toy_gcm k n ct aad = Some pt -> (length pt + 16 = length ct)%nat.
Proof.
  intros k n ct aad pt H. unfold toy_gcm in H. destruct (16 <=? length ct)%nat eqn:E; [|discriminate].
  apply Nat.leb_le in E. inversion H. rewrite firstn_length. lia.
Qed.
(* UID aa..aa, method "ss", AES-256-GCM, timestamp 1700000000, session id 5, ordered *)
Definition ex_pt : list N :=
  repeat 0xaa 16 ++ [115; 115] ++ repeat 0 10 ++ [1] ++ [0; 0; 0; 0; 0x65; 0x53; 0xF1; 0x00] ++ [0; 0; 0; 5] ++ [0] ++ repeat 0 6.
Definition ex_packet : packet := PWS (Some (repeat 7 32 ++ ex_pt ++ repeat 0 16)).
Definition ex_state : server_state :=
  mkSt (repeat 3 32) (repeat 0xbb 16) [repeat 0xaa 16] [[115; 115]] [] [] [].
Definition ex_now : Z := 1700000000 * 1000000000 + 5.
Example ex_session :
  decide toy_dh toy_gcm ex_packet ex_state ex_now = ProxySession (repeat 0xaa 16) 5 [115; 115] 1 false.
Proof. vm_compute. reflexivity. Qed.
Example ex_valid_cloak : valid_cloak toy_dh toy_gcm ex_packet ex_state ex_now (info_of ex_pt).
Proof. apply (auth_ok_iff toy_dh toy_gcm toy_gcm_len). vm_compute. reflexivity. Qed.
Example ex_late_is_web :
  decide toy_dh toy_gcm ex_packet ex_state (ex_now + 180 * 1000000000) = Redirect RWindow.
Proof. vm_compute. reflexivity. Qed.

(* ---- who is accepted, in terms of the key agreement: what a key agreement that refuses small-order inputs,
   never returns the all-zero secret, or an AEAD that is a function, gives the dispatcher ---- *)
Section KeyHolder.
  Variable dh : list N -> list N -> option (list N).
  Variable gcm_open : list N -> list N -> list N -> list N -> option (list N).
  Hypothesis gcm_open_len : forall k n ct aad pt, gcm_open k n ct aad = Some pt -> (length pt + 16 = length ct)%nat.

  Section LowOrder.
    (* crypto/ecdh: X25519 on a small-order input is the error "bad X25519 remote ECDH input: low order point" *)
    Hypothesis dh_rejects_low_order : forall pv u, low_order u = true -> dh pv u = None.

    Lemma accepted_not_low_order : forall p st now ci,
      auth_first_packet dh gcm_open p st now = DOk ci ->
      exists fr, first_packet dh p (st_staticPv st) = Ok fr /\ low_order (f_rand fr) = false.
    Proof.
      intros p st now ci H. apply (auth_ok_iff dh gcm_open gcm_open_len) in H. destruct H as (fr & sh & pt & F & D & _).
      exists fr. split; [exact F|]. destruct (low_order (f_rand fr)) eqn:L; [|reflexivity].
      rewrite (dh_rejects_low_order _ _ L) in D. discriminate.
    Qed.

    Lemma session_not_low_order : forall p st now,
      is_session (decide dh gcm_open p st now) ->
      exists fr, first_packet dh p (st_staticPv st) = Ok fr /\ low_order (f_rand fr) = false.
    Proof.
      intros p st now H. unfold decide in H.
      destruct (auth_first_packet dh gcm_open p st now) as [ci|r|] eqn:A; cbn in H; try contradiction.
      eapply accepted_not_low_order. exact A.
    Qed.

    (* and positively: such a hello is a parse error at the key agreement, i.e. web traffic, whatever its block,
       the server state and the clock *)
    Lemma low_order_tls_is_web : forall data ch st now,
      parseClientHello data = Ok ch -> low_order (copy_into 32 (ch_random ch)) = true ->
      auth_first_packet dh gcm_open (PTLS data) st now = DFail (RParse EDH) /\
      decide dh gcm_open (PTLS data) st now = Redirect (RParse EDH).
    Proof using dh_rejects_low_order.
      intros data ch st now P L.
      assert (auth_first_packet dh gcm_open (PTLS data) st now = DFail (RParse EDH)) as A.
      { unfold auth_first_packet, first_packet, tls_first_packet. rewrite P. cbn [bind].
        unfold unmarshalClientHello. cbv zeta.
        rewrite copy_into_length. cbn [Nat.eqb negb]. rewrite (dh_rejects_low_order _ _ L). reflexivity. }
      split; [exact A|]. unfold decide. rewrite A. reflexivity.
    Qed.

    Lemma low_order_ws_is_web : forall h st now,
      (96 <= length h)%nat -> low_order (copy_into 32 (firstn 32 h)) = true ->
      auth_first_packet dh gcm_open (PWS (Some h)) st now = DFail (RParse EDH) /\
      decide dh gcm_open (PWS (Some h)) st now = Redirect (RParse EDH).
    Proof using dh_rejects_low_order.
      clear gcm_open_len. intros h st now Hl L.
      assert (auth_first_packet dh gcm_open (PWS (Some h)) st now = DFail (RParse EDH)) as A.
      { unfold auth_first_packet, first_packet, ws_first_packet, unmarshalHidden.
        destruct (Nat.ltb_spec (length h) 96) as [Hlt|_]; [lia|].
        unfold take. destruct (Nat.leb_spec 32 (length h)) as [_|Hgt]; [|lia]. cbn [bind]. cbv zeta.
        rewrite copy_into_length. cbn [Nat.eqb negb]. rewrite (dh_rejects_low_order _ _ L). reflexivity. }
      split; [exact A|]. unfold decide. rewrite A. reflexivity.
    Qed.
  End LowOrder.

  Section NonZero.
    (* crypto/ecdh: the shared secret is 32 bytes and never all-zero (that IS the error) *)
    Hypothesis dh_nonzero : forall pv u s, dh pv u = Some s -> length s = 32%nat /\ s <> repeat 0 32.

    Lemma accepted_key_nonzero : forall p st now ci,
      auth_first_packet dh gcm_open p st now = DOk ci ->
      exists fr pt, first_packet dh p (st_staticPv st) = Ok fr /\
        dh (st_staticPv st) (f_rand fr) = Some (f_shared fr) /\ f_shared fr <> repeat 0 32 /\
        gcm_open (f_shared fr) (firstn 12 (f_rand fr)) (f_ct fr) [] = Some pt /\ ci = info_of pt.
    Proof.
      intros p st now ci H. apply (auth_ok_iff dh gcm_open gcm_open_len) in H.
      destruct H as (fr & sh & pt & F & D & S & _ & G & _ & _ & E).
      destruct (dh_nonzero _ _ _ D) as [L32 Hnz]. rewrite (copy_into_exact 32 sh L32) in S.
      exists fr, pt. rewrite S. rewrite S in G. repeat split; assumption.
    Qed.
  End NonZero.

  Section Sealed.
    Variable gcm_seal : list N -> list N -> list N -> list N -> list N.
    (* AES-GCM as a function: the only string that opens to p under (k, n) is the sealing of p under (k, n) *)
    Hypothesis open_is_seal : forall k n c p, gcm_open k n c [] = Some p -> c = gcm_seal k n p [].

    Lemma accepted_is_sealed_to_server : forall p st now ci,
      auth_first_packet dh gcm_open p st now = DOk ci ->
      exists fr sh pt, first_packet dh p (st_staticPv st) = Ok fr /\
        dh (st_staticPv st) (f_rand fr) = Some sh /\
        f_ct fr = gcm_seal (copy_into 32 sh) (firstn 12 (f_rand fr)) pt [] /\
        length pt = 48%nat /\ in_window (pt_ts pt) now = true /\ ci = info_of pt.
    Proof.
      intros p st now ci H. apply (auth_ok_iff dh gcm_open gcm_open_len) in H.
      destruct H as (fr & sh & pt & F & D & S & _ & G & L & W & E).
      exists fr, sh, pt. rewrite <- S. repeat split; auto.
    Qed.
  End Sealed.
End KeyHolder.
