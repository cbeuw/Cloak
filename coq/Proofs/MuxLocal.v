(* Local facts about a single application call in a given state (C03: after a close). *)
From Coq Require Import NArith ZArith List Bool Lia.
From Cloak Require Import Model.Reorder Model.Mux Proofs.MuxSafety.
Import ListNotations.
Local Open Scope N_scope.

Lemma write_on_closed_stream y x sid data ch st :
  lookup sid (se_objs (sess y x)) = Some st -> st_closed st = true ->
  stream_write y x sid data ch = (y, [ERet R_BROKEN_STREAM 0 []]).
Proof. intros El Hc. unfold stream_write. now rewrite El, Hc. Qed.

(* a closed stream keeps serving the bytes that had arrived, then reports the broken-stream error;
   it never blocks *)
Lemma read_on_closed_stream y x sid k st :
  WF y -> lookup sid (se_objs (sess y x)) = Some st -> st_closed st = true ->
  match pipe (st_rb st) with
  | [] => try_read y x sid (S k) = Some (y, R_BROKEN_STREAM, [])
  | _ => exists y', try_read y x sid (S k) = Some (y', R_OK, firstn (S k) (pipe (st_rb st)))
  end.
Proof.
  intros Hwf El Hc. destruct (WF_sess y x Hwf) as (Ho & _ & _). destruct (Ho _ _ El) as (H1 & _ & _).
  unfold try_read. rewrite El. unfold rb_read. destruct (pipe (st_rb st)) as [|b p] eqn:Ep.
  - rewrite <- H1, Hc. reflexivity.
  - eexists. reflexivity.
Qed.

(* a local Close keeps what had arrived: the pipe content of the closed stream is what it was *)
Lemma rb_close_keeps_pipe rb : pipe (rb_close rb) = pipe rb /\ pclosed (rb_close rb) = true.
Proof. split; reflexivity. Qed.
