(* C12, counting clause: at every quiescent moment of a live session the count of active streams
   equals the number of open streams.  The invariant CI holds after every label; inside a label
   all of it but one clause holds after every elementary move (CIx). *)
From Coq Require Import NArith ZArith List Bool Lia.
From Coq Require Import ZifyN ZifyBool ZifyNat.
From Cloak Require Import Model.Reorder Model.Mux Proofs.MuxBase Proofs.MuxSafety.
Import ListNotations.
Local Open Scope N_scope.

Definition keys {A} (t : list (N * A)) : list N := map fst t.
Definition ntrue (t : list (N * bool)) : nat := length (filter (fun e : N * bool => snd e) t).

Lemma keys_update {A} id (v : A) t k : In k (keys (update id v t)) <-> k = id \/ In k (keys t).
Proof.
  induction t as [|[k' v'] t IH]; cbn; [intuition congruence|].
  destruct (id =? k') eqn:E; cbn.
  - assert (id = k') by lia; subst. intuition congruence.
  - rewrite IH. intuition congruence.
Qed.
Lemma keys_lookup {A} k (t : list (N * A)) : In k (keys t) <-> lookup k t <> None.
Proof.
  induction t as [|[k' v'] t IH]; cbn; [tauto|].
  destruct (k =? k') eqn:E.
  - assert (k = k') by lia; subst. split; [discriminate|auto].
  - rewrite <- IH. split; [intros [H|H]; [lia|exact H]|auto].
Qed.
Lemma nodup_update {A} id (v : A) t : NoDup (keys t) -> NoDup (keys (update id v t)).
Proof.
  induction t as [|[k' v'] t IH]; cbn; intros H.
  - constructor; [intros []|constructor].
  - inversion H as [|? ? Hn Hd]; subst. destruct (id =? k') eqn:E; cbn.
    + assert (id = k') by lia; subst. constructor; assumption.
    + constructor; [|apply IH; exact Hd]. intros Hin. apply (proj1 (keys_update id v t k')) in Hin.
      destruct Hin as [->|Hin]; [lia|contradiction].
Qed.
Lemma ntrue_update id v t :
  (ntrue (update id v t) + (match lookup id t with Some true => 1 | _ => 0 end) =
   ntrue t + (if v then 1 else 0))%nat.
Proof.
  unfold ntrue. induction t as [|[k' v'] t IH]; cbn.
  - destruct v; reflexivity.
  - destruct (id =? k') eqn:E; cbn.
    + destruct v, v'; cbn; lia.
    + destruct v'; cbn; lia.
Qed.
Lemma In_lookup_nodup {A} k (v : A) t : NoDup (keys t) -> In (k, v) t -> lookup k t = Some v.
Proof.
  induction t as [|[k' v'] t IH]; cbn; intros Hd [].
  - injection H as -> ->. now rewrite N.eqb_refl.
  - inversion Hd as [|? ? Hn Hd']; subst. destruct (k =? k') eqn:E.
    + assert (k = k') by lia; subst. exfalso. apply Hn. change (In (fst (k', v)) (map fst t)). now apply in_map.
    + auto.
Qed.

Lemma incr32_spec c n : c = N.of_nat n mod two32 -> incr32 c = N.of_nat (S n) mod two32.
Proof. intros ->. unfold incr32, two32. rewrite Nat2N.inj_succ, <- N.add_1_r. now rewrite N.add_mod_idemp_l. Qed.
Lemma decr32_spec c n : c = N.of_nat (S n) mod two32 -> decr32 c = N.of_nat n mod two32.
Proof.
  intros ->. unfold decr32, two32. rewrite N.add_mod_idemp_l by discriminate.
  rewrite Nat2N.inj_succ, <- N.add_1_r.
  replace (N.of_nat n + 1 + (4294967296 - 1)) with (N.of_nat n + 1 * 4294967296) by lia.
  now rewrite N.mod_add.
Qed.

Definition CI (se : session) : Prop :=
  se_closed se = false ->
  NoDup (keys (se_tab se)) /\
  se_count se = N.of_nat (ntrue (se_tab se)) mod two32 /\
  (forall id, lookup id (se_tab se) = Some true ->
              exists st, lookup id (se_objs se) = Some st /\ st_closed st = false) /\
  (forall id, lookup id (se_tab se) <> None -> lookup id (se_objs se) <> None).

Lemma CI_same se se' :
  se_closed se' = se_closed se -> se_tab se' = se_tab se -> se_objs se' = se_objs se ->
  se_count se' = se_count se -> CI se -> CI se'.
Proof. unfold CI. intros -> -> -> ->. auto. Qed.

Definition CIs (y : sys) : Prop := forall x, CI (sess y x).

(* Between "mark closed" and "forget" a live entry points at a closed object.  CIx X is CI with
   that clause waived on the ids in X; a move keeps it as long as it marks ids of X only, and
   the block that marked puts the clause back (close_stream_forgets). *)
Definition CIx (X : N -> Prop) (se : session) : Prop :=
  se_closed se = false ->
  NoDup (keys (se_tab se)) /\
  se_count se = N.of_nat (ntrue (se_tab se)) mod two32 /\
  (forall id, lookup id (se_tab se) = Some true ->
              X id \/ exists st, lookup id (se_objs se) = Some st /\ st_closed st = false) /\
  (forall id, lookup id (se_tab se) <> None -> lookup id (se_objs se) <> None).
Definition CIxs (X : side -> N -> Prop) (y : sys) : Prop := forall x, CIx (X x) (sess y x).

Definition entry_has_open (se : session) (id : N) : Prop :=
  se_closed se = false -> lookup id (se_tab se) = Some true ->
  exists st, lookup id (se_objs se) = Some st /\ st_closed st = false.

Lemma CI_CIx X se : CI se -> CIx X se.
Proof.
  intros H Hop. destruct (H Hop) as (H1 & H2 & H3 & H4). split; [exact H1|split; [exact H2|split; [|exact H4]]].
  intros id Hi. right. exact (H3 id Hi).
Qed.
Lemma CIx_CI X se : CIx X se -> (forall id, X id -> entry_has_open se id) -> CI se.
Proof.
  intros H HX Hop. destruct (H Hop) as (H1 & H2 & H3 & H4). split; [exact H1|split; [exact H2|split; [|exact H4]]].
  intros id Hi. destruct (H3 id Hi) as [Hx|Ho]; [exact (HX id Hx Hop Hi)|exact Ho].
Qed.

Lemma smove_CIx P (X : N -> Prop) se se' :
  smove P se se' -> (forall id, P (Mark id) -> X id) -> ~ P Unchecked -> CIx X se -> CIx X se'.
Proof.
  intros Hm HX HO H. destruct (smove_fields _ _ _ Hm) as (Ecl & _). unfold CIx. rewrite Ecl. intros Hop.
  destruct (H Hop) as (H1 & H2 & H3 & H4).
  destruct Hm as [q n ts|id st st' El Hc _ _|id st w Hmk El Hc|id st El Hc [Ht|Ho]|id q n _ [En|Ho]]; try contradiction;
    unfold add_stream; cbn [se_tab se_objs se_count upd_timers upd_nextsid upd_acceptq upd_objs upd_tab upd_count].
  - split; [exact H1|split; [exact H2|split; [exact H3|exact H4]]].
  - split; [exact H1|split; [exact H2|split]]; intros i Hi; rewrite lookup_update; destruct (i =? id) eqn:E; auto; [|discriminate].
    assert (i = id) by lia; subst. destruct (H3 _ Hi) as [Hx|(st0 & E0 & C0)]; [now left|right].
    exists st'. split; [reflexivity|congruence].
  - split; [exact H1|split; [exact H2|split]]; intros i Hi; rewrite lookup_update; destruct (i =? id) eqn:E; auto; [|discriminate].
    left. assert (i = id) by lia; subst. auto.
  - specialize (Ht Hop). split; [apply nodup_update; exact H1|split; [|split]].
    + pose proof (ntrue_update id false (se_tab se)) as Hn. rewrite Ht in Hn.
      apply decr32_spec. replace (S (ntrue (update id false (se_tab se)))) with (ntrue (se_tab se)) by lia. exact H2.
    + intros i Hi. rewrite lookup_update in Hi. destruct (i =? id); [discriminate|apply H3; exact Hi].
    + intros i Hi. rewrite lookup_update in Hi. destruct (i =? id) eqn:E; [|apply H4; exact Hi].
      assert (i = id) by lia; subst. congruence.
  - split; [apply nodup_update; exact H1|split; [|split]].
    + pose proof (ntrue_update id true (se_tab se)) as Hn. rewrite En in Hn.
      replace (ntrue (update id true (se_tab se))) with (S (ntrue (se_tab se))) by lia.
      apply incr32_spec. exact H2.
    + intros i Hi. rewrite lookup_update in Hi. rewrite lookup_update.
      destruct (i =? id); [right; exists new_stream; split; reflexivity|apply H3; exact Hi].
    + intros i Hi. rewrite lookup_update in Hi. rewrite lookup_update. destruct (i =? id); [discriminate|auto].
Qed.

Lemma atom_CIxs s P (X : side -> N -> Prop) y y' :
  atom s P y y' -> (forall id, P (Mark id) -> X s id) -> ~ P Unchecked -> CIxs X y -> CIxs X y'.
Proof.
  intros Ha HX HO Hc x. destruct (atom_cases _ _ _ _ Ha) as (Ho & Hs).
  destruct (side_cases x s) as [->| ->]; [|rewrite Ho; apply Hc]. specialize (Hc s).
  destruct Hs as [->|[Hm|(_ & Hcl & _)]]; [exact Hc|eapply smove_CIx; eauto|intros Hop; congruence].
Qed.

Lemma moves_CIxs A P (X : side -> N -> Prop) y y' :
  moves A P y y' -> (forall s id, P s (Mark id) -> X s id) -> (forall s, ~ P s Unchecked) -> CIs y -> CIxs X y'.
Proof.
  intros Hm HX HU Hc. refine (moves_inv A P (CIxs X) _ y y' Hm (fun x => CI_CIx _ _ (Hc x))).
  intros s a b _ Ha. eapply atom_CIxs; [exact Ha|apply HX|apply HU].
Qed.
Lemma CI_CIx_none se : CI se <-> CIx (fun _ => False) se.
Proof. split; [apply CI_CIx|intros H; apply (CIx_CI _ _ H); intros id []]. Qed.
Lemma CIxs_CIs y : CIxs (fun _ _ => False) y -> CIs y.
Proof. intros H x. apply CI_CIx_none, H. Qed.

Lemma close_stream_forgets y s sid active ch y' ch' evs rc :
  close_stream y s sid active ch = (y', ch', evs, rc) ->
  y' = y \/ se_closed (sess y' s) = true \/ lookup sid (se_tab (sess y' s)) = Some false.
Proof.
  intros H. destruct (close_stream_cases _ _ _ _ _ _ _ _ _ H) as [[-> _]|(st & y2 & ch2 & evs2 & ok & El & _ & Ee & Ht)];
    [now left|right].
  cbv zeta in Ee, Ht. destruct Ht as [(-> & -> & _)|(_ & [[(ts & ->) _]|(ch4 & evs4 & rc4 & _ & Esc & _)])].
  - left. destruct active; [|discriminate Ee].
    destruct (stream_emit_sess _ _ _ _ _ _ _ _ _ Ee) as [_ Hx]. rewrite sess_set_same in Hx.
    cbn [se_objs upd_objs] in Hx. rewrite lookup_update_eq in Hx. exact Hx.
  - right. rewrite sess_set_same. cbn. apply lookup_update_eq.
  - left. eapply session_close_closed; eauto.
Qed.

Lemma deliver_entry_has_open y s fr ch y' ch' evs :
  deliver y s fr ch = (y', ch', evs) -> entry_has_open (sess y s) (w_sid fr) -> entry_has_open (sess y' s) (w_sid fr).
Proof.
  unfold deliver. intros H Hl.
  destruct (lookup (w_sid fr) (se_objs (sess y s))) as [st|] eqn:El; [|injection H as <- _ _; exact Hl].
  destruct (rb_write (st_rb st) _) as [[rb' tbc] er]. cbv zeta in H. set (y1 := set_sess y s _) in H.
  assert (L1 : entry_has_open (sess y1 s) (w_sid fr)).
  { unfold y1. rewrite sess_set_same. intros Hop Ht. destruct (Hl Hop Ht) as (st0 & E0 & C0).
    rewrite El in E0. injection E0 as <-. exists (st_set_rb st rb'). cbn. now rewrite lookup_update_eq. }
  destruct tbc; [|injection H as <- _ _; exact L1].
  destruct (close_stream y1 s (w_sid fr) false ch) as [[[y2 ch2] evs2] rc] eqn:Ecs. injection H as <- _ _.
  destruct (close_stream_forgets _ _ _ _ _ _ _ _ _ Ecs) as [->|[Hcl|Hf]]; [exact L1| |]; intros Hop Ht; congruence.
Qed.
Lemma recv_frame_entry_has_open y s fr ch y' ch' evs :
  recv_frame y s fr ch = (y', ch', evs) -> entry_has_open (sess y s) (w_sid fr) -> entry_has_open (sess y' s) (w_sid fr).
Proof.
  rewrite recv_frame_eq. intros H Hl.
  destruct (w_cl fr =? 2).
  { destruct (passive_close y s) as [y1 e1] eqn:Epc. injection H as <- _ _.
    intros Hop. rewrite (passive_close_closed _ _ _ _ Epc) in Hop. discriminate. }
  destruct (se_closed (sess y s)); [injection H as <- _ _; exact Hl|].
  destruct (lookup (w_sid fr) (se_tab (sess y s))) as [[|]|].
  - eapply deliver_entry_has_open; eauto.
  - injection H as <- _ _. exact Hl.
  - eapply deliver_entry_has_open; [exact H|]. rewrite sess_set_same. intros _ _. exists new_stream. cbn.
    now rewrite lookup_update_eq.
Qed.

Definition fresh_open (y : sys) (l : label) : Prop :=
  forall x, l = LOpen x -> lookup (se_nextsid (sess y x)) (se_objs (sess y x)) = None.


Lemma step_core_CIs y l ch y' evs :
  step_core y l ch = (y', evs) -> WF y -> fresh_open y l -> CIs y -> CIs y'.
Proof.
  intros H Hwf Hf Hc.
  set (P := fun x a => match a with Mark id => marks y l x id | Unchecked => False | Close => True end).
  assert (Hm : moves (fun _ => True) P y y').
  { eapply step_core_moves; [exact H|exact (fun _ => I)|]. split; [exact (fun _ => I)|split].
    - intros x ->. right. intros Hop. destruct (Hc x Hop) as (_ & _ & _ & H4).
      destruct (lookup (se_nextsid (sess y x)) (se_tab (sess y x))) eqn:E; [|reflexivity].
      exfalso. apply (H4 (se_nextsid (sess y x))); [rewrite E; discriminate|exact (Hf x eq_refl)].
    - intros x id Hmk. split; [exact Hmk|right; now apply WF_open_has_entry]. }
  assert (Hx : CIxs (marks y l) y') by (apply (moves_CIxs _ _ _ _ _ Hm); unfold P; auto).
  intros x. apply (CIx_CI _ _ (Hx x)). intros id Hmk.
  destruct l as [s|s sid data|s sid k|s|s sid|s|s c|c|d|c|s c]; try contradiction.
  - destruct Hmk as [-> ->]. rewrite step_core_close_stream in H.
    destruct (close_stream y s sid true ch) as [[[y1 ch1] e1] rc] eqn:Ec. injection H as <- _.
    destruct (close_stream_forgets _ _ _ _ _ _ _ _ _ Ec) as [->|[Hcl|Hff]]; intros Hop Ht; try congruence.
    destruct (Hc s Hop) as (_ & _ & H3 & _). auto.
  - destruct Hmk as (-> & cn & fr & q & En & Eq & <-). rewrite step_core_deliver, En, Eq in H.
    assert (Hl : entry_has_open (sess y s) (w_sid fr)) by (intros Hop; destruct (Hc s Hop) as (_ & _ & H3 & _); auto).
    destruct (_ || _); [injection H as <- _; exact Hl|].
    destruct (recv_frame _ s fr ch) as [[y2 ch2] e2] eqn:Er. injection H as <- _.
    eapply recv_frame_entry_has_open; [exact Er|]. now rewrite sess_set_conns.
Qed.

Lemma CIs_set_conns y cs : CIs y -> CIs (set_conns y cs).
Proof. intros H x. rewrite sess_set_conns. apply H. Qed.

Lemma step_CIs y l ch y' evs :
  step y l ch = (y', evs) -> WF y -> fresh_open y l -> CIs y -> CIs y'.
Proof.
  unfold step. intros H Hwf Hf Hc. destruct (step_core y l ch) as [y1 evs1] eqn:Es.
  destruct (resolve (sy_pend y1) y1) as [[y2 ps] evs2] eqn:Er. injection H as <- _.
  pose proof (step_core_CIs _ _ _ _ _ Es Hwf Hf Hc) as Hc1.
  intros x. rewrite sess_set_pend. revert x. apply CIxs_CIs.
  eapply (moves_CIxs (fun _ => True) (fun _ _ => False)); [eapply resolve_moves; eauto|auto|auto|exact Hc1].
Qed.

Fixpoint fresh_opens (y : sys) (ls : list (label * list N)) : Prop :=
  match ls with
  | [] => True
  | (l, ch) :: t => fresh_open y l /\ fresh_opens (fst (step y l ch)) t
  end.

Lemma run_CIs ls : forall y y' os, run y ls = (y', os) -> WF y -> fresh_opens y ls -> CIs y -> CIs y'.
Proof.
  induction ls as [|[l ch] t IH]; intros y y' os H Hwf Hf Hc; cbn in H; [injection H as <- _; exact Hc|].
  destruct (step y l ch) as [y1 o] eqn:Es. destruct (run y1 t) as [y2 os2] eqn:Er. injection H as <- _.
  destruct Hf as [Hf1 Hf2]. rewrite Es in Hf2. cbn [fst] in Hf2.
  eapply IH; [exact Er|eapply step_WF; eauto|exact Hf2|]. eapply step_CIs; eauto.
Qed.

Lemma init_CIs k sp u ta tb : CIs (init k sp u ta tb).
Proof.
  intros x Hop. destruct x; cbn; (split; [apply NoDup_nil|split; [reflexivity|split; intros id H; [discriminate|exfalso; apply H; reflexivity]]]).
Qed.

Lemma live_streams_count se :
  NoDup (keys (se_tab se)) ->
  (forall id, lookup id (se_tab se) = Some true ->
              exists st, lookup id (se_objs se) = Some st /\ st_closed st = false) ->
  length (live_streams se) = ntrue (se_tab se).
Proof.
  unfold live_streams, ntrue. rewrite map_length. intros Hd Ho.
  assert (H : forall e, In e (se_tab se) -> snd e && stream_open se (fst e) = snd e).
  { intros [id b] Hin. cbn. destruct b; [|reflexivity]. cbn.
    destruct (Ho id (In_lookup_nodup _ _ _ Hd Hin)) as (st & El & Ecl). unfold stream_open. now rewrite El, Ecl. }
  revert H. generalize (se_tab se). intros t. induction t as [|e t IH]; intros H; [reflexivity|].
  cbn [filter]. rewrite (H e (or_introl eq_refl)). destruct (snd e); cbn [length]; rewrite IH; auto; intros e' He'; apply H; now right.
Qed.

(* on a live session the stream counter equals the number of open streams (as a 32-bit counter) *)
Lemma CI_count se :
  CI se -> se_closed se = false -> se_count se = N.of_nat (length (live_streams se)) mod two32.
Proof. intros H Hop. destruct (H Hop) as (H1 & H2 & H3 & _). rewrite live_streams_count; assumption. Qed.

(* ... hence the inactivity check closes a session only while it has no open stream *)
Lemma tick_closes_only_without_open_streams y d ch s :
  CI (sess y s) -> N.of_nat (length (live_streams (sess y s))) < two32 ->
  se_closed (sess y s) = false -> se_closed (sess (fst (step y (LTick d) ch)) s) = true ->
  live_streams (sess y s) = [].
Proof.
  intros Hci Hlt Hop Hcl. pose proof (CI_count _ Hci Hop) as Hc.
  rewrite (tick_closes_only_idle y d ch s Hop Hcl), N.mod_small in Hc by exact Hlt.
  destruct (live_streams (sess y s)); [reflexivity|cbn in Hc; lia].
Qed.

Lemma reach_CIs k sp u ta tb ls : fresh_opens (init k sp u ta tb) ls -> CIs (reach k sp u ta tb ls).
Proof.
  intros Hf. unfold reach. destruct (run _ ls) as [y os] eqn:Er.
  exact (run_CIs ls _ _ _ Er (init_WF _ _ _ _ _) Hf (init_CIs _ _ _ _ _)).
Qed.
