(* Facts about Model/LowOrder.v and the Gallina X25519 (Model/Crypto/X25519.v):
     - each of the 14 listed strings decodes to a small-order x-coordinate (low_order_points_low), and every
       integer below 2^256 that does is one of the 14 listed values, of which the strings are the encodings
       (low_order_values_complete);
     - for EVERY private key the Montgomery ladder maps a small-order input to 0, hence the key agreement as the
       server performs it (DispatchInst.dh_real: all-zero output is the error of crypto/ecdh) rejects it.
   The second fact is proved for all 2^256 scalars by an invariant over the ladder: the projective pair
   ([m]P, [m+1]P) stays, up to scaling, in a table of eight classes indexed by m mod 8.  The table is checked by
   computation; that scaling the inputs scales the outputs is the homogeneity of the ladder formulas.
   Also here, next to the other fact about dh_real: it never hands out the all-zero string (dh_real_nonzero); that
   one does not look at the ladder. *)
From Coq Require Import ZArith NArith List Bool Lia Znumtheory Morphisms Setoid RelationClasses.
From Cloak Require Import Model.Crypto.X25519 Proofs.X25519 Model.DispatchInst Model.LowOrder.
Import ListNotations.
Local Open Scope Z_scope.

(* ------------------------------------------------------------------ the field operations on residues *)
Definition canon (x : Z) : Prop := 0 <= x < p25519.

Lemma mod_canon : forall x, canon (x mod p25519).
Proof. intros x. apply Z.mod_pos_bound. reflexivity. Qed.

(* congruence mod p as a setoid: it carries the three lemmas fadd_mod, fsub_mod, fmul_mod below and nothing else *)
Definition eqp (a b : Z) : Prop := a mod p25519 = b mod p25519.
#[local] Instance eqp_equiv : Equivalence eqp.
Proof. unfold eqp. split; [intros x; reflexivity | intros x y H; symmetry; exact H | intros x y z H1 H2; congruence]. Qed.
#[local] Instance add_eqp : Proper (eqp ==> eqp ==> eqp) Z.add.
Proof. unfold eqp. intros a a' Ha b b' Hb. rewrite Z.add_mod, Ha, Hb, <- Z.add_mod by discriminate. reflexivity. Qed.
#[local] Instance sub_eqp : Proper (eqp ==> eqp ==> eqp) Z.sub.
Proof. unfold eqp. intros a a' Ha b b' Hb. rewrite Zminus_mod, Ha, Hb, <- Zminus_mod. reflexivity. Qed.
#[local] Instance mul_eqp : Proper (eqp ==> eqp ==> eqp) Z.mul.
Proof. unfold eqp. intros a a' Ha b b' Hb. rewrite Z.mul_mod, Ha, Hb, <- Z.mul_mod by discriminate. reflexivity. Qed.
Lemma mod_eqp : forall a, eqp (a mod p25519) a.
Proof. intros a. unfold eqp. apply Z.mod_mod. discriminate. Qed.

Lemma fadd_mod : forall a b, fadd (a mod p25519) (b mod p25519) = (a + b) mod p25519.
Proof. intros. rewrite fadd_spec by apply mod_canon. change (eqp (a mod p25519 + b mod p25519) (a + b)). now rewrite !mod_eqp. Qed.
Lemma fsub_mod : forall a b, fsub (a mod p25519) (b mod p25519) = (a - b) mod p25519.
Proof. intros. rewrite fsub_spec by apply mod_canon. change (eqp (a mod p25519 - b mod p25519) (a - b)). now rewrite !mod_eqp. Qed.
Lemma fmul_mod : forall a b, fmul (a mod p25519) (b mod p25519) = (a * b) mod p25519.
Proof. intros. rewrite fmul_spec by apply mod_canon. change (eqp (a mod p25519 * (b mod p25519)) (a * b)). now rewrite !mod_eqp. Qed.
Lemma fmul_canon_mod : forall c b, canon c -> fmul c (b mod p25519) = (c * b) mod p25519.
Proof. intros c b Hc. rewrite <- (Z.mod_small c p25519 Hc) at 1. apply fmul_mod. Qed.

(* ------------------------------------------------------------------ one ladder step, named *)
Definition dblx (x z : Z) : Z :=
  let A := fadd x z in let AA := fmul A A in let B := fsub x z in let BB := fmul B B in fmul AA BB.
Definition dblz (x z : Z) : Z :=
  let A := fadd x z in let AA := fmul A A in let B := fsub x z in let BB := fmul B B in
  let E := fsub AA BB in fmul E (fadd AA (fmul 121665 E)).
Definition daddx (x2 z2 x3 z3 : Z) : Z :=
  let A := fadd x2 z2 in let B := fsub x2 z2 in let C := fadd x3 z3 in let D := fsub x3 z3 in
  let DA := fmul D A in let CB := fmul C B in let s := fadd DA CB in fmul s s.
Definition daddz (u x2 z2 x3 z3 : Z) : Z :=
  let A := fadd x2 z2 in let B := fsub x2 z2 in let C := fadd x3 z3 in let D := fsub x3 z3 in
  let DA := fmul D A in let CB := fmul C B in let s := fsub DA CB in fmul u (fmul s s).

Lemma ladder_S : forall t k u x2 z2 x3 z3 swap,
  ladder (S t) k u x2 z2 x3 z3 swap =
  let kt := Z.testbit k (Z.of_nat t) in
  let sw := xorb swap kt in
  let a2 := if sw then x3 else x2 in let a3 := if sw then x2 else x3 in
  let b2 := if sw then z3 else z2 in let b3 := if sw then z2 else z3 in
  ladder t k u (dblx a2 b2) (dblz a2 b2) (daddx a2 b2 a3 b3) (daddz u a2 b2 a3 b3) kt.
Proof.
  intros. cbn [ladder]. unfold dblx, dblz, daddx, daddz, cswap.
  destruct (xorb swap (Z.testbit k (Z.of_nat t))); cbv beta iota zeta; reflexivity.
Qed.

Lemma ladder_O : forall k u x2 z2 x3 z3 swap,
  ladder O k u x2 z2 x3 z3 swap = fmul (if swap then x3 else x2) (finv (if swap then z3 else z2)).
Proof. intros. cbn [ladder]. unfold cswap. destruct swap; reflexivity. Qed.

(* the same formulas as polynomials over Z *)
Definition Xd (a b : Z) : Z := (a + b) ^ 2 * (a - b) ^ 2.
Definition Zd (a b : Z) : Z := ((a + b) ^ 2 - (a - b) ^ 2) * ((a + b) ^ 2 + 121665 * ((a + b) ^ 2 - (a - b) ^ 2)).
Definition Xa (a2 b2 a3 b3 : Z) : Z := ((a3 - b3) * (a2 + b2) + (a3 + b3) * (a2 - b2)) ^ 2.
Definition Za (u a2 b2 a3 b3 : Z) : Z := u * ((a3 - b3) * (a2 + b2) - (a3 + b3) * (a2 - b2)) ^ 2.

Lemma canon_121665 : canon 121665.
Proof. split; [discriminate | reflexivity]. Qed.

Lemma dblx_poly : forall a b, dblx (a mod p25519) (b mod p25519) = Xd a b mod p25519.
Proof. intros. unfold dblx, Xd. cbv zeta. rewrite fadd_mod, fsub_mod, !fmul_mod. f_equal. ring. Qed.
Lemma dblz_poly : forall a b, dblz (a mod p25519) (b mod p25519) = Zd a b mod p25519.
Proof.
  intros. unfold dblz, Zd. cbv zeta.
  rewrite fadd_mod, fsub_mod, !fmul_mod, fsub_mod, (fmul_canon_mod _ _ canon_121665), fadd_mod, fmul_mod.
  f_equal. ring.
Qed.
Lemma daddx_poly : forall a2 b2 a3 b3,
  daddx (a2 mod p25519) (b2 mod p25519) (a3 mod p25519) (b3 mod p25519) = Xa a2 b2 a3 b3 mod p25519.
Proof. intros. unfold daddx, Xa. cbv zeta. rewrite !fadd_mod, !fsub_mod, !fmul_mod, fadd_mod, fmul_mod. f_equal. ring. Qed.
Lemma daddz_poly : forall u a2 b2 a3 b3, canon u ->
  daddz u (a2 mod p25519) (b2 mod p25519) (a3 mod p25519) (b3 mod p25519) = Za u a2 b2 a3 b3 mod p25519.
Proof.
  intros u a2 b2 a3 b3 Hu. unfold daddz, Za. cbv zeta.
  rewrite !fadd_mod, !fsub_mod, !fmul_mod, fsub_mod, fmul_mod, (fmul_canon_mod _ _ Hu). f_equal. ring.
Qed.

(* ------------------------------------------------------------------ projective classes and the checked table *)
(* (x : z) is, up to a scalar, the representative r.  The scalar may be 0: a pair that has collapsed to (0 : 0)
   is in every class, and the invariant of the ladder then says nothing about it.  That is harmless, because all
   that is read off at the end is z = l * 0 = 0 in the class (1 : 0), whatever l is. *)
Definition in_cls (r : Z * Z) (x z : Z) : Prop :=
  exists l, x = (l * fst r) mod p25519 /\ z = (l * snd r) mod p25519.

(* The checks run the field operations on the (canonical) representatives themselves: (X : Zv) is in the class
   of r' if it is mu * r' for the coordinate mu of (X : Zv) that r' has normalised to 1 (only this direction is
   proved, proportional_sound).  Taking mu = Zv unless b' = 0 is the right guess for the tables below, whose
   entries all have b' = 1 or are (1, 0); for any other r' the check would simply fail. *)
Definition proportional (X Zv : Z) (r' : Z * Z) : bool :=
  let (a', b') := r' in
  let mu := if b' =? 0 then X else Zv in
  (X =? fmul mu a') && (Zv =? fmul mu b').
Definition dbl_ok (r r' : Z * Z) : bool :=
  proportional (dblx (fst r) (snd r)) (dblz (fst r) (snd r)) r'.
Definition dadd_ok (u : Z) (r2 r3 r' : Z * Z) : bool :=
  proportional (daddx (fst r2) (snd r2) (fst r3) (snd r3)) (daddz u (fst r2) (snd r2) (fst r3) (snd r3)) r'.

Definition canon_pair (r : Z * Z) : Prop := canon (fst r) /\ canon (snd r).

Lemma proportional_sound : forall X Zv r', canon X -> canon Zv -> canon_pair r' ->
  proportional X Zv r' = true -> exists mu, X = (mu * fst r') mod p25519 /\ Zv = (mu * snd r') mod p25519.
Proof.
  intros X Zv [a' b'] HX HZ [Ha Hb] H. cbn [fst snd proportional] in *.
  set (mu := if b' =? 0 then X else Zv) in H.
  assert (canon mu) by (unfold mu; destruct (b' =? 0); assumption).
  rewrite !fmul_spec in H by assumption.
  apply andb_prop in H as [H1 H2]. apply Z.eqb_eq in H1, H2. exists mu. split; assumption.
Qed.

(* if (P : Q) passes the check against r', every multiple of it is in the class of r' *)
Lemma proportional_in_cls : forall c P Q r', canon_pair r' ->
  proportional (P mod p25519) (Q mod p25519) r' = true -> in_cls r' ((c * P) mod p25519) ((c * Q) mod p25519).
Proof.
  intros c P Q r' Hr' H.
  apply proportional_sound in H as (mu & H1 & H2); [|apply mod_canon|apply mod_canon|exact Hr'].
  exists (c * mu).
  rewrite <- !Z.mul_assoc, <- (Zmult_mod_idemp_r (mu * fst r')), <- (Zmult_mod_idemp_r (mu * snd r')), <- H1, <- H2,
    !Zmult_mod_idemp_r. split; reflexivity.
Qed.

Lemma dbl_sound : forall r r' x z, canon_pair r -> canon_pair r' -> dbl_ok r r' = true ->
  in_cls r x z -> in_cls r' (dblx x z) (dblz x z).
Proof.
  intros r r' x z [Ha Hb] Hr' H (l & -> & ->).
  rewrite dblx_poly, dblz_poly.
  replace (Xd (l * fst r) (l * snd r)) with (l ^ 4 * Xd (fst r) (snd r)) by (unfold Xd; ring).
  replace (Zd (l * fst r) (l * snd r)) with (l ^ 4 * Zd (fst r) (snd r)) by (unfold Zd; ring).
  apply proportional_in_cls; [exact Hr'|].
  rewrite <- dblx_poly, <- dblz_poly, !Z.mod_small by assumption. exact H.
Qed.

(* differential addition is symmetric in its two points, so one check serves both orders *)
Lemma dadd_sound : forall u r2 r3 r' x2 z2 x3 z3, canon u -> canon_pair r2 -> canon_pair r3 -> canon_pair r' ->
  dadd_ok u r2 r3 r' = true -> in_cls r2 x2 z2 -> in_cls r3 x3 z3 ->
  in_cls r' (daddx x2 z2 x3 z3) (daddz u x2 z2 x3 z3) /\ in_cls r' (daddx x3 z3 x2 z2) (daddz u x3 z3 x2 z2).
Proof.
  intros u r2 r3 r' x2 z2 x3 z3 Hu [Ha2 Hb2] [Ha3 Hb3] Hr' H (l2 & -> & ->) (l3 & -> & ->).
  set (a2 := fst r2) in *; set (b2 := snd r2) in *; set (a3 := fst r3) in *; set (b3 := snd r3) in *.
  rewrite !daddx_poly, !daddz_poly by exact Hu.
  replace (Xa (l3 * a3) (l3 * b3) (l2 * a2) (l2 * b2)) with (Xa (l2 * a2) (l2 * b2) (l3 * a3) (l3 * b3)) by (unfold Xa; ring).
  replace (Za u (l3 * a3) (l3 * b3) (l2 * a2) (l2 * b2)) with (Za u (l2 * a2) (l2 * b2) (l3 * a3) (l3 * b3)) by (unfold Za; ring).
  replace (Xa (l2 * a2) (l2 * b2) (l3 * a3) (l3 * b3)) with ((l2 * l3) ^ 2 * Xa a2 b2 a3 b3) by (unfold Xa; ring).
  replace (Za u (l2 * a2) (l2 * b2) (l3 * a3) (l3 * b3)) with ((l2 * l3) ^ 2 * Za u a2 b2 a3 b3) by (unfold Za; ring).
  assert (in_cls r' (((l2 * l3) ^ 2 * Xa a2 b2 a3 b3) mod p25519) (((l2 * l3) ^ 2 * Za u a2 b2 a3 b3) mod p25519)); [|tauto].
  apply proportional_in_cls; [exact Hr'|].
  rewrite <- daddx_poly, <- daddz_poly, !Z.mod_small by assumption. exact H.
Qed.

(* x-coordinate class of [m]P for m = 0..7, P the point with x-coordinate u *)
Definition tbl (u : Z) : list (Z * Z) :=
  if u =? 0 then [(1, 0); (0, 1); (1, 0); (0, 1); (1, 0); (0, 1); (1, 0); (0, 1)]
  else if u =? 1 then [(1, 0); (1, 1); (0, 1); (1, 1); (1, 0); (1, 1); (0, 1); (1, 1)]
  else if u =? p25519 - 1 then
    [(1, 0); (p25519 - 1, 1); (0, 1); (p25519 - 1, 1); (1, 0); (p25519 - 1, 1); (0, 1); (p25519 - 1, 1)]
  else if u =? order8a then
    [(1, 0); (order8a, 1); (1, 1); (order8b, 1); (0, 1); (order8b, 1); (1, 1); (order8a, 1)]
  else [(1, 0); (order8b, 1); (1, 1); (order8a, 1); (0, 1); (order8a, 1); (1, 1); (order8b, 1)].
Definition rep (u m : Z) : Z * Z := nth (Z.to_nat (m mod 8)) (tbl u) (1, 0).

Definition canonb (x : Z) : bool := (0 <=? x) && (x <? p25519).
(* one ladder step from ([m]P, [m+1]P): doubling [m]P and adding the two (doubling [m+1]P is the check at m+1) *)
Definition step_ok (u m : Z) : bool :=
  canonb (fst (rep u m)) && canonb (snd (rep u m)) &&
  dbl_ok (rep u m) (rep u (2 * m)) && dadd_ok u (rep u m) (rep u (m + 1)) (rep u (2 * m + 1)).
Definition pair_eqb (a b : Z * Z) : bool := (fst a =? fst b) && (snd a =? snd b).
Definition table_ok (u : Z) : bool :=
  forallb (step_ok u) [0; 1; 2; 3; 4; 5; 6; 7] && pair_eqb (rep u 0) (1, 0) && pair_eqb (rep u 1) (u, 1).

Lemma low_order_x_cases : forall u, low_order_x u = true -> In u [0; 1; p25519 - 1; order8a; order8b].
Proof.
  intros u H. unfold low_order_x in H.
  repeat (apply orb_prop in H as [H|H]); apply Z.eqb_eq in H; subst u; cbn [In]; auto 6.
Qed.

Lemma low_order_table : forall u, low_order_x u = true -> table_ok u = true.
Proof.
  intros u H. destruct (low_order_x_cases u H) as [<-|[<-|[<-|[<-|[<-|[]]]]]]; vm_compute; reflexivity.
Qed.

Lemma low_order_x_canon : forall u, low_order_x u = true -> canon u.
Proof.
  intros u H. destruct (low_order_x_cases u H) as [<-|[<-|[<-|[<-|[<-|[]]]]]]; split; (discriminate || reflexivity).
Qed.

Lemma rep_mod : forall u m m', m mod 8 = m' mod 8 -> rep u m = rep u m'.
Proof. intros u m m' H. unfold rep. rewrite H. reflexivity. Qed.

Lemma pair_eqb_eq : forall a b, pair_eqb a b = true -> a = b.
Proof.
  intros [a1 a2] [b1 b2] H. apply andb_prop in H as [H1 H2]. apply Z.eqb_eq in H1, H2. cbn [fst snd] in *. congruence.
Qed.

(* What a checked table gives: its rows 0 and 1, and one ladder step from EVERY row M.  Only the rows 0..7 were
   checked; they cover every M because the table is indexed mod 8 and 2M, M+1 and 2M+1 commute with mod 8. *)
Lemma table_ok_inv : forall u, table_ok u = true ->
  rep u 0 = (1, 0) /\ rep u 1 = (u, 1) /\
  forall M, canon_pair (rep u M) /\ dbl_ok (rep u M) (rep u (2 * M)) = true /\
    dadd_ok u (rep u M) (rep u (M + 1)) (rep u (2 * M + 1)) = true.
Proof.
  intros u H. unfold table_ok in H. apply andb_prop in H as [H R1]. apply andb_prop in H as [H R0].
  split; [exact (pair_eqb_eq _ _ R0)|]. split; [exact (pair_eqb_eq _ _ R1)|]. intros M.
  rewrite forallb_forall in H.
  assert (In (M mod 8) [0; 1; 2; 3; 4; 5; 6; 7]) as Hin
    by (pose proof (Z.mod_pos_bound M 8 eq_refl); cbn [In]; lia).
  specialize (H _ Hin). unfold step_ok in H.
  (* the check of row M mod 8 is the check of row M *)
  rewrite (rep_mod u (M mod 8) M), (rep_mod u (2 * (M mod 8)) (2 * M)), (rep_mod u (M mod 8 + 1) (M + 1)),
    (rep_mod u (2 * (M mod 8) + 1) (2 * M + 1)) in H
    by (rewrite ?Z.mod_mod, <- ?(Z.add_mod_idemp_l (2 * (M mod 8))), ?Z.mul_mod_idemp_r, ?Z.add_mod_idemp_l by lia; reflexivity).
  apply andb_prop in H as [H Ha]. apply andb_prop in H as [H Hd]. apply andb_prop in H as [H1 H2].
  unfold canonb in H1, H2. unfold canon_pair, canon. repeat split; try assumption; lia.
Qed.

(* ------------------------------------------------------------------ bits of the scalar *)
Lemma div_pow2_step : forall K t, 0 <= K -> 0 <= t ->
  K / 2 ^ t = 2 * (K / 2 ^ (t + 1)) + Z.b2z (Z.testbit K t).
Proof.
  intros K t HK Ht. rewrite Z.testbit_spec' by assumption.
  rewrite Z.pow_add_r by lia. change (2 ^ 1) with 2.
  rewrite <- Z.div_div by lia.
  pose proof (Z.div_mod (K / 2 ^ t) 2 ltac:(lia)). lia.
Qed.

Lemma clamp_mod8 : forall s, clamp_scalar s mod 8 = 0.
Proof.
  intros s. change 8 with (2 ^ 3). apply Z.bits_inj'. intros i Hi. rewrite Z.bits_0.
  destruct (Z.lt_ge_cases i 3) as [Hlt|Hge].
  - rewrite Z.mod_pow2_bits_low by lia. unfold clamp_scalar.
    rewrite Z.lor_spec, Z.land_spec.
    assert (i = 0 \/ i = 1 \/ i = 2) as [-> | [-> | ->]] by lia;
      rewrite andb_false_r; reflexivity.
  - apply Z.mod_pow2_bits_high. lia.
Qed.

(* ------------------------------------------------------------------ the ladder on a small-order point *)
Lemma finv_0 : finv 0 = 0.
Proof. vm_compute. reflexivity. Qed.
Lemma fmul_0_r : forall a, fmul a 0 = 0.
Proof. intros a. unfold fmul. rewrite Z.mul_0_r. reflexivity. Qed.

(* With M the bits of the scalar above position n, the two slots hold [M]P and [M+1]P (in the order `swap` says);
   a scalar that is a multiple of 8 ends in the class of [0]P = (1 : 0), whose z is 0. *)
Lemma ladder_low_order : forall u k, canon u -> table_ok u = true ->
  forall (n : nat) (x2 z2 x3 z3 : Z) (swap : bool), (n <= 255)%nat ->
  let K := k mod 2 ^ 255 in
  let M := K / 2 ^ Z.of_nat n in
  in_cls (rep u M) (if swap then x3 else x2) (if swap then z3 else z2) ->
  in_cls (rep u (M + 1)) (if swap then x2 else x3) (if swap then z2 else z3) ->
  K mod 8 = 0 ->
  ladder n k u x2 z2 x3 z3 swap = 0.
Proof.
  intros u k Hu Ht n. destruct (table_ok_inv u Ht) as (R0 & _ & Hrow).
  induction n as [|t IH]; intros x2 z2 x3 z3 swap Hn K M H2 H3 H8.
  - rewrite ladder_O. subst M. change (2 ^ Z.of_nat 0) with 1 in H2. rewrite Z.div_1_r in H2.
    rewrite (rep_mod u K 0), R0 in H2 by (rewrite H8; reflexivity).
    destruct H2 as (l & _ & Hz). cbn [snd] in Hz. rewrite Z.mul_0_r, Zmod_0_l in Hz.
    rewrite Hz, finv_0. apply fmul_0_r.
  - rewrite ladder_S. cbv zeta.
    assert (0 <= K) as HK by (apply Z.mod_pos_bound; reflexivity).
    assert (Z.testbit k (Z.of_nat t) = Z.testbit K (Z.of_nat t)) as ->
      by (subst K; symmetry; apply Z.mod_pow2_bits_low; lia).
    pose proof (div_pow2_step K (Z.of_nat t) HK ltac:(lia)) as Hstep.
    replace (Z.of_nat t + 1) with (Z.of_nat (S t)) in Hstep by lia. fold M in Hstep.
    destruct (Hrow M) as (C2 & D2 & A).
    destruct (Hrow (M + 1)) as (C3 & D3 & _). replace (2 * (M + 1)) with (2 * M + 2) in D3 by ring.
    destruct (Hrow (2 * M)) as (C4 & _). destruct (Hrow (2 * M + 1)) as (C5 & _).
    destruct (Hrow (2 * M + 2)) as (C6 & _).
    destruct (dadd_sound u _ _ _ _ _ _ _ Hu C2 C3 C5 A H2 H3) as [A23 A32].
    pose proof (dbl_sound _ _ _ _ C2 C4 D2 H2) as B2. pose proof (dbl_sound _ _ _ _ C3 C6 D3 H3) as B3.
    destruct (Z.testbit K (Z.of_nat t)); cbn [Z.b2z] in Hstep.
    + (* bit 1: the new pair is ([2M+1]P, [2M+2]P) *)
      rewrite xorb_true_r.
      apply IH; [lia | | | exact H8]; fold K; rewrite Hstep.
      * destruct swap; assumption.
      * replace (2 * M + 1 + 1) with (2 * M + 2) by ring. destruct swap; assumption.
    + (* bit 0: ([2M]P, [2M+1]P) *)
      rewrite xorb_false_r.
      apply IH; [lia | | | exact H8]; fold K; rewrite Hstep, Z.add_0_r; destruct swap; assumption.
Qed.

Lemma x25519_z_low_order : forall s v, low_order_x (freduce (mask_u v)) = true -> x25519_z s v = 0.
Proof.
  intros s v H. unfold x25519_z. cbv zeta.
  set (u := freduce (mask_u v)) in *.
  pose proof (low_order_x_canon u H) as Hu. pose proof (low_order_table u H) as Ht.
  destruct (table_ok_inv u Ht) as (R0 & R1 & _).
  assert (clamp_scalar s mod 2 ^ 255 / 2 ^ Z.of_nat 255 = 0) as E
    by (apply Z.div_small, Z.mod_pos_bound; reflexivity).
  apply (ladder_low_order u (clamp_scalar s) Hu Ht 255 1 0 u 1 false (le_n _)); cbv zeta; rewrite ?E.
  - rewrite R0. exists 1. split; reflexivity.
  - rewrite Z.add_0_l, R1. exists 1. cbn [fst snd]. rewrite Z.mul_1_l, Z.mod_small by exact Hu. split; reflexivity.
  - change (2 ^ 255) with (8 * 2 ^ 252). rewrite Z.mul_comm.
    rewrite <- (Zmod_div_mod 8 (2 ^ 252 * 8)); [apply clamp_mod8 | lia | lia | exists (2 ^ 252); reflexivity].
Qed.

(* the key agreement of the model refuses every small-order ephemeral value, whatever the private key *)
Theorem dh_real_rejects_low_order : forall pv u, low_order u = true -> dh_real pv u = None.
Proof.
  intros pv u H. unfold dh_real, x25519. unfold low_order, decode_u in H.
  rewrite (x25519_z_low_order (le_decode pv) (le_decode u) H). reflexivity.
Qed.

Lemma forallb_zero_repeat : forall l, forallb (N.eqb 0) l = true -> l = repeat 0%N (length l).
Proof.
  induction l as [|a l IH]; intros H; [reflexivity|]. cbn [forallb] in H. apply andb_prop in H as [Ha Hl].
  apply N.eqb_eq in Ha. subst a. cbn. f_equal. apply IH. exact Hl.
Qed.

(* conversely dh_real never hands out the all-zero string, and what it hands out has 32 bytes *)
Theorem dh_real_nonzero : forall pv u s, dh_real pv u = Some s -> length s = 32%nat /\ s <> repeat 0%N 32.
Proof.
  intros pv u s. unfold dh_real.
  assert (L : length (x25519 pv u) = 32%nat) by reflexivity.
  (* x25519 pv u becomes a variable: nothing below may unfold the ladder on unknown inputs *)
  generalize dependent (x25519 pv u). intros r L. cbv zeta.
  destruct (forallb (N.eqb 0) r) eqn:E; [discriminate|]. intros [= <-].
  split; [exact L|]. intros ->. discriminate E.
Qed.

(* ------------------------------------------------------------------ the list is complete *)
(* the evaluation of low_order_points_low below, on the integers instead of their 32-byte encodings *)
Lemma low_order_values_sound : forallb (fun v => low_order_x (freduce (mask_u v))) low_order_values = true.
Proof. vm_compute. reflexivity. Qed.

Lemma low_order_points_low : forallb low_order low_order_points = true.
Proof. vm_compute. reflexivity. Qed.

Lemma low_order_values_complete : forall v, 0 <= v < 2 ^ 256 ->
  low_order_x (freduce (mask_u v)) = true -> In v low_order_values.
Proof.
  (* v = q * 2^255 + w and w = q' * p + r with q, q' in {0, 1}; each of the five values of r then leaves at most
     2 x 2 candidates for v, all of them in the list: linear arithmetic over the literals *)
  intros v Hv H. unfold mask_u in H.
  assert (0 <= v mod 2 ^ 255 < 2 ^ 255) as Hw by (apply Z.mod_pos_bound; reflexivity).
  rewrite freduce_spec in H by (split; [lia | eapply Z.lt_trans; [apply Hw | reflexivity]]).
  pose proof (Z.div_mod v (2 ^ 255) ltac:(discriminate)) as Hdm.
  assert (v / 2 ^ 255 = 0 \/ v / 2 ^ 255 = 1) as Hq.
  { assert (0 <= v / 2 ^ 255 < 2).
    { split; [apply Z.div_pos; lia | apply Z.div_lt_upper_bound; [reflexivity | change (2 ^ 255 * 2) with (2 ^ 256); lia]]. }
    lia. }
  set (w := v mod 2 ^ 255) in *.
  pose proof (Z.div_mod w p25519 ltac:(discriminate)) as Hdp.
  pose proof (Z.mod_pos_bound w p25519 ltac:(reflexivity)) as Hmp.
  assert (w / p25519 = 0 \/ w / p25519 = 1) as Hqp.
  { assert (0 <= w / p25519 < 2).
    { split; [apply Z.div_pos; [lia | reflexivity] | apply Z.div_lt_upper_bound; [reflexivity|]].
      eapply Z.lt_trans; [apply Hw | reflexivity]. }
    lia. }
  unfold low_order_x in H.
  unfold low_order_values. cbv zeta. cbn [map app In].
  change (2 ^ 255) with 57896044618658097711785492504343953926634992332820282019728792003956564819968 in *.
  unfold p25519, order8a, order8b in *. (* p25519 brings 2 ^ 255 back; lia wants numerals *)
  change (2 ^ 255) with 57896044618658097711785492504343953926634992332820282019728792003956564819968 in *.
  repeat (apply orb_prop in H as [H|H]); apply Z.eqb_eq in H; lia.
Qed.
