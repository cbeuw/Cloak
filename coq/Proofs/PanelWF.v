(* What one step of a thread does to the bookkeeping data (dstep: quiet, or one of eleven writers),
   and the structural invariants of the panel model that hold for every parameter setting (pre-fix or
   fixed lock order, with or without the proposed repair), in every reachable state of every
   interleaving.  C15, C16 and C17's ownership part are built on both. *)
From Coq Require Import ZArith NArith List Bool Lia Arith.
From Cloak Require Import Model.Panel Proofs.PanelLocks.
Import ListNotations.

Lemma updN_same : forall A (f : N -> A) i x, updN f i x i = x.
Proof. intros; unfold updN; now rewrite N.eqb_refl. Qed.
Lemma updN_other : forall A (f : N -> A) i x j, j <> i -> updN f i x j = f j.
Proof. intros; unfold updN; destruct (N.eqb_spec j i); congruence. Qed.

(* ------------------------------------------------------------------ lists *)
Lemma slook_in : forall sd l k, slook sd l = Some k -> In (sd, k) l.
Proof.
  induction l as [|[x k'] l IH]; cbn; intros k H; [discriminate|].
  destruct (N.eqb_spec sd x); [injection H as <-; subst; auto | auto].
Qed.
Lemma slook_none : forall sd l, slook sd l = None -> ~ In sd (map fst l).
Proof.
  induction l as [|[x k'] l IH]; cbn; intros H; [tauto|].
  destruct (N.eqb_spec sd x); [discriminate|]. intros [E|E]; [congruence | now apply IH].
Qed.
Lemma in_slook : forall sd k l, NoDup (map fst l) -> In (sd, k) l -> slook sd l = Some k.
Proof.
  induction l as [|[x k'] l IH]; cbn; intros ND H; [contradiction|].
  inversion ND as [|? ? Hn ND']; subst.
  destruct H as [H|H].
  - injection H as -> ->. now rewrite N.eqb_refl.
  - destruct (N.eqb_spec sd x); [subst; exfalso; apply Hn; now apply (in_map fst) in H | auto].
Qed.
Lemma sdel_in : forall sd e l, In e (sdel sd l) -> In e l /\ fst e <> sd.
Proof.
  unfold sdel; intros sd e l H. apply filter_In in H. destruct H as [H1 H2]. split; auto.
  destruct (N.eqb_spec sd (fst e)); [discriminate | congruence].
Qed.
Lemma slook_sdel_other : forall sd sd' l, sd' <> sd -> slook sd' (sdel sd l) = slook sd' l.
Proof.
  induction l as [|[x k] l IH]; cbn; intros Hne; auto.
  destruct (N.eqb_spec sd x); cbn.
  - subst. destruct (N.eqb_spec sd' x); [congruence | auto].
  - destruct (N.eqb_spec sd' x); auto.
Qed.
Lemma sdel_keys_sub : forall sd l x, In x (map fst (sdel sd l)) -> In x (map fst l).
Proof.
  intros sd l x H. apply in_map_iff in H. destruct H as [e [<- H]]. apply sdel_in in H. apply in_map. tauto.
Qed.
Lemma sdel_nodup : forall sd l, NoDup (map fst l) -> NoDup (map fst (sdel sd l)).
Proof.
  induction l as [|[x k] l IH]; cbn; intros ND; auto. inversion ND; subst.
  destruct (N.eqb sd x); cbn; auto. constructor; auto. intro H. apply sdel_keys_sub in H. auto.
Qed.
Lemma sdel_length : forall sd l, length (sdel sd l) <= length l.
Proof. intros; unfold sdel. induction l; cbn; auto. destruct (negb _); cbn; lia. Qed.

(* ------------------------------------------------------------------ close_all, nullify_all *)
Lemma close_all_owner : forall l f k,
  s_owner (close_all l f k) = s_owner (f k) /\ s_sid (close_all l f k) = s_sid (f k).
Proof.
  induction l as [|[x k'] l IH]; cbn; intros f k; auto.
  destruct (IH (upd f k' (mkSes (s_owner (f k')) (s_sid (f k')) true)) k) as [-> ->].
  unfold upd. destruct (Nat.eqb_spec k k'); subst; auto.
Qed.
Lemma close_all_mono : forall l f k, s_closed (f k) = true -> s_closed (close_all l f k) = true.
Proof.
  induction l as [|[x k'] l IH]; cbn; intros f k H; auto.
  apply IH. unfold upd. destruct (Nat.eqb_spec k k'); subst; auto.
Qed.
Lemma close_all_in : forall l f sd k, In (sd, k) l -> s_closed (close_all l f k) = true.
Proof.
  induction l as [|[x k'] l IH]; cbn; intros f sd k H; [contradiction|].
  destruct H as [H|H]; [injection H as -> ->; apply close_all_mono; now rewrite upd_same | eauto].
Qed.
Lemma close_all_open : forall l f k, s_closed (close_all l f k) = false -> s_closed (f k) = false.
Proof.
  intros l f k H. destruct (s_closed (f k)) eqn:E; auto. apply (close_all_mono l) in E. congruence.
Qed.

Lemma nullify_all_fields : forall n tb rs q i,
  let rs' := fst (nullify_all n tb rs q) in
  r_uid (rs' i) = r_uid (rs i) /\ r_bypass (rs' i) = r_bypass (rs i)
  /\ r_sess (rs' i) = r_sess (rs i) /\ r_term (rs' i) = r_term (rs i).
Proof.
  induction n as [|n IH]; cbn; intros tb rs q i; auto.
  specialize (IH tb rs q). destruct (nullify_all n tb rs q) as [rs1 q1]. cbn in IH.
  destruct (tb (r_uid (rs1 n))); [|apply IH].
  destruct (_ && _); cbn; [|apply IH].
  unfold upd. destruct (Nat.eqb_spec i n); [subst; cbn; apply IH | apply IH].
Qed.

(* the loop has visited the records below n only *)
Lemma nullify_all_above : forall n tb rs q r, n <= r -> fst (nullify_all n tb rs q) r = rs r.
Proof.
  induction n as [|n IH]; cbn; intros tb rs q r Hr; auto.
  specialize (IH tb rs q r). destruct (nullify_all n tb rs q) as [rs1 q1]. cbn [fst] in IH.
  destruct (tb _); [destruct (_ && _)|]; cbn; rewrite ?upd_other by lia; apply IH; lia.
Qed.

(* ------------------------------------------------------------------ what a step does to the data *)
(* usage a thread carries in its program counter: swapped out of record r's valve and not yet in the
   queue (TerminateActiveUser), or taken out of the queue and not yet uploaded (commitUpdate).
   These are the two terms of the C16 ledger that live in the threads (lterm, iterm of PanelC16.v);
   a quiet step must not change them, which is what ds_quiet and ds_close record. *)
Definition inflight (p : pc) : option (nat * ZZ + list (N * ZZ)) :=
  match p with
  | TN1 r v _ _ | TN2 r v _ _ => Some (inl (r, v))
  | M8 st => Some (inr st)
  | _ => None
  end.

Lemma inflight_seq_pc : forall rest r k, inflight (seq_pc rest r k) = None.
Proof. intros rest r k. destruct rest as [|[] ?]; [destruct k|..]; reflexivity. Qed.

Lemma start_pc_inflight : forall s o p, start_pc s o = Some p -> inflight p = None.
Proof.
  intros s o p E. destruct (start_pc_shape _ _ _ E) as [(? & ? & ->)|[(? & ? & -> & _)|[(? & ->) | -> ]]]; reflexivity.
Qed.

(* One step of a thread, as far as the bookkeeping data is concerned: either it moves the program
   counter and the locks only (and carries the same usage), or it is one of eleven writers.
   [dstep c s p p' d]: from pc p the thread goes to p' and the data of s becomes that of d (d keeps
   the locks and threads of s).  Where tstep tests a flag it also stores (r_bypass), the writer has
   the value as a variable b with an equation: the case split of tstep_data substitutes it. *)
Inductive dstep (c : cfg) (s : state) : pc -> pc -> state -> Prop :=
| ds_newrec : forall u sd b (Hnone : table s u = None) (Hb : is_bypass c u = b)
    (Hok : b = true \/ authenticate (now s) (db s) u = AOk),
    dstep c s (D1 u sd) (D2 u sd (nrec s))
      (set_table (updN (table s) u (Some (nrec s)))
         (set_nrec (S (nrec s)) (set_rec (nrec s) (mkRec u b [] pzero false) s)))
| ds_join : forall u sd r k (Hlive : patched c && r_term (recs s r) = false)
    (Hlook : slook sd (r_sess (recs s r)) = Some k),
    dstep c s (D3 u sd r) Done (set_g_log (mkAdm u sd r k true :: g_log s) s)
| ds_newses : forall u sd r b (Hlive : patched c && r_term (recs s r) = false)
    (Hlook : slook sd (r_sess (recs s r)) = None) (Hb : r_bypass (recs s r) = b)
    (Hok : b = true \/
       authorise (now s) (db s) (r_uid (recs s r)) (Z.of_nat (length (r_sess (recs s r)))) = AOk),
    dstep c s (D3 u sd r) Done
      (set_g_log (mkAdm u sd r (nses s) false :: g_log s)
         (set_nses (S (nses s)) (set_sess (upd (sess s) (nses s) (mkSes r sd false))
            (set_rec r (mkRec (r_uid (recs s r)) b ((sd, nses s) :: r_sess (recs s r))
                              (r_valve (recs s r)) (r_term (recs s r))) s))))
| ds_close : forall r sd k add l' p' (Hfl : inflight p' = None)
    (Hlook : slook sd (r_sess (recs s r)) = Some k) (Hdel : sdel sd (r_sess (recs s r)) = l')
    (Hadd : add = pzero \/ add = (0, close_tx c k)%Z),
    dstep c s (C1 r sd) p'
      (set_g_cnt (updN (g_cnt s) (r_uid (recs s r)) (padd (g_cnt s (r_uid (recs s r))) add))
         (set_sess (upd (sess s) k (mkSes (s_owner (sess s k)) (s_sid (sess s k)) true))
            (set_rec r (mkRec (r_uid (recs s r)) (r_bypass (recs s r)) l'
                              (padd (r_valve (recs s r)) add) (r_term (recs s r))) s)))
| ds_nullify : forall r rest k (Hb : r_bypass (recs s r) = false),
    dstep c s (TN0 r rest k) (TN1 r (r_valve (recs s r)) rest k)
      (set_rec r (mkRec (r_uid (recs s r)) false (r_sess (recs s r)) pzero (r_term (recs s r))) s)
| ds_enqueue : forall r v rest k,
    dstep c s (TN2 r v rest k) (seq_pc rest r k) (set_queue (qadd (r_uid (recs s r)) v (queue s)) s)
| ds_closeall : forall r rest k b add (Hb : r_bypass (recs s r) = b)
    (Hadd : add = pzero \/ add = (0, close_all_cost (close_tx c) (r_sess (recs s r)) (sess s))%Z),
    dstep c s (TC1 r rest k) (seq_pc rest r k)
      (set_g_cnt (updN (g_cnt s) (r_uid (recs s r)) (padd (g_cnt s (r_uid (recs s r))) add))
         (set_sess (close_all (r_sess (recs s r)) (sess s))
            (set_rec r (mkRec (r_uid (recs s r)) b []
                              (padd (r_valve (recs s r)) add) (patched c || r_term (recs s r))) s)))
| ds_delete : forall r rest k (Hhome : patched c = true -> table s (r_uid (recs s r)) = Some r),
    dstep c s (TD1 r rest k) (seq_pc rest r k) (set_table (updN (table s) (r_uid (recs s r)) None) s)
| ds_collect : forall cm rs' q' (Hnull : nullify_all (nrec s) (table s) (recs s) (queue s) = (rs', q')),
    dstep c s (U2 cm) (if cm then M0 else Done) (set_queue q' (set_recs rs' s))
| ds_drain : forall skip st p' (Hst : filter (fun e => negb (memN (fst e) skip)) (queue s) = st)
    (Hp' : p' = match st with [] => Done | _ => M8 st end),
    dstep c s (M1 [] skip) p' (set_queue [] s)
| ds_upload : forall st d' rs chg' nou'
    (Hup : upload (now s) (db s) (g_chg s) (g_nou s) st = (d', rs, chg', nou')),
    dstep c s (M8 st) (m9 rs) (set_g_nou nou' (set_g_chg chg' (set_db d' s)))
| ds_quiet : forall p p' (Hfl : inflight p' = inflight p), dstep c s p p' s.

(* s' and s agree on the fields no lock operation touches *)
Definition same_data (s' s : state) : Prop :=
  table s' = table s /\ nrec s' = nrec s /\ recs s' = recs s /\ nses s' = nses s /\ sess s' = sess s
  /\ queue s' = queue s /\ g_log s' = g_log s /\ db s' = db s /\ now s' = now s
  /\ g_cnt s' = g_cnt s /\ g_chg s' = g_chg s /\ g_nou s' = g_nou s /\ g_adm s' = g_adm s.

Lemma tstep_data : forall c s t ch s', tstep c s t ch = Some s' ->
  exists p' d, dstep c s (thr s t) p' d
    /\ same_data s' d /\ thr s' = upd (thr s) t p' /\ nthr s' = nthr s.
Proof.
  intros c s t ch s' H. tstep_cases H c s t.
  all: do 2 eexists; unfold same_data; sim.
  (* the first writer whose pc and written fields match; ds_quiet, which matches any pc, is the last constructor *)
  all: once (split; [econstructor | split; [repeat split; reflexivity | split; reflexivity]]).
  all: eauto.
  all: unfold term_enter; try change (m9 ?k) with (seq_pc [] 0 k); rewrite ?inflight_seq_pc; try reflexivity.
  all: intros Hpat; try congruence.
  (* ds_delete under the repair: TD1 deletes only when the table still holds r *)
  all: rewrite Hpat in Heqb; try discriminate; apply Nat.eqb_eq in Heqb; congruence.
Qed.

(* ------------------------------------------------------------------ the invariant *)
(* the record a program counter refers to; for a dispatch past GetUser also the uid it resolved *)
Definition pc_rid (p : pc) : option nat :=
  match p with
  | D2 _ _ r | D3 _ _ r | C0 r _ | C1 r _ | TN0 r _ _ | TN1 r _ _ _ | TN2 r _ _ _
  | TC0 r _ _ | TC1 r _ _ | TD0 r _ _ | TD1 r _ _ | M3 _ r _ _ | M4 _ r _ _ => Some r
  | _ => None
  end.
Definition pc_du (p : pc) : option (N * nat) :=
  match p with D2 u _ r | D3 u _ r => Some (u, r) | _ => None end.

(* the part that speaks of the data only *)
Record WFd (c : cfg) (s : state) : Prop := {
  w_table : forall u r, table s u = Some r -> r < nrec s /\ r_uid (recs s r) = u;
  w_ses : forall k, k < nses s -> s_owner (sess s k) < nrec s;
  w_map : forall r sd k, r < nrec s -> In (sd, k) (r_sess (recs s r)) ->
            k < nses s /\ s_owner (sess s k) = r /\ s_sid (sess s k) = sd;
  w_nodup : forall r, r < nrec s -> NoDup (map fst (r_sess (recs s r)));
  w_live : forall k, k < nses s -> s_closed (sess s k) = false ->
            slook (s_sid (sess s k)) (r_sess (recs s (s_owner (sess s k)))) = Some k;
  w_bypass : forall r, r < nrec s -> r_bypass (recs s r) = is_bypass c (r_uid (recs s r));
  w_log : forall a, In a (g_log s) ->
            a_rec a < nrec s /\ a_ses a < nses s /\ s_owner (sess s (a_ses a)) = a_rec a
            /\ s_sid (sess s (a_ses a)) = a_sid a /\ r_uid (recs s (a_rec a)) = a_uid a
}.

(* the records a program counter names exist, and the one a dispatch resolved is the user's *)
Definition pc_ok (s : state) (p : pc) : Prop :=
  (forall r, pc_rid p = Some r -> r < nrec s)
  /\ (forall u r, pc_du p = Some (u, r) -> r_uid (recs s r) = u).

(* w_data is a coercion: the fields of WFd (w_table ... w_log) apply to a proof of WF *)
Record WF (c : cfg) (s : state) : Prop := {
  w_data :> WFd c s;
  w_thr : forall t, pc_ok s (thr s t)
}.

Lemma w_pc : forall c s, WF c s -> forall t r, pc_rid (thr s t) = Some r -> r < nrec s.
Proof. intros c s W t. apply (w_thr _ _ W t). Qed.

Lemma WF_init : forall c d nw, WF c (init d nw).
Proof.
  intros; repeat constructor; cbn; intros; try discriminate; try lia; try contradiction.
Qed.

Lemma pc_du_rid : forall p u r, pc_du p = Some (u, r) -> pc_rid p = Some r.
Proof. destruct p; cbn; intros; try discriminate; congruence. Qed.

(* records are never removed and keep their uid *)
Lemma pc_ok_mono : forall s s' p, nrec s <= nrec s' ->
  (forall r, r < nrec s -> r_uid (recs s' r) = r_uid (recs s r)) -> pc_ok s p -> pc_ok s' p.
Proof.
  intros s s' p Hn Hu [Hr Hd]. split.
  - intros r E. apply Hr in E. lia.
  - intros u r E. rewrite Hu; [auto | apply Hr; eapply pc_du_rid; eauto].
Qed.

(* ------------------------------------------------------------------ the writers keep WFd *)
Lemma upd_rec_fields : forall (rs : nat -> arec) r x' i,
  r_uid x' = r_uid (rs r) -> r_bypass x' = r_bypass (rs r) -> r_sess x' = r_sess (rs r) ->
  r_uid (upd rs r x' i) = r_uid (rs i) /\ r_bypass (upd rs r x' i) = r_bypass (rs i)
  /\ r_sess (upd rs r x' i) = r_sess (rs i).
Proof. intros rs r x' i. unfold upd. destruct (Nat.eqb_spec i r) as [->|]; auto. Qed.

(* WFd reads the table, the counters, the sessions, the log and, of the records, uid, bypass flag
   and session table *)
Lemma WFd_frame : forall c s s',
  table s' = table s -> nrec s' = nrec s -> nses s' = nses s -> sess s' = sess s ->
  g_log s' = g_log s ->
  (forall i, r_uid (recs s' i) = r_uid (recs s i) /\ r_bypass (recs s' i) = r_bypass (recs s i)
             /\ r_sess (recs s' i) = r_sess (recs s i)) ->
  WFd c s -> WFd c s'.
Proof.
  intros c s s' Et En Ens Ess El E [wt ws wm wn wl wb wg].
  assert (Eu := fun i => proj1 (E i)). assert (Eb := fun i => proj1 (proj2 (E i))).
  assert (Es := fun i => proj2 (proj2 (E i))).
  constructor; rewrite ?Et, ?En, ?Ens, ?Ess, ?El; intros; rewrite ?Eu, ?Eb, ?Es in *; eauto.
Qed.

(* Sessions leave the table of record r (nothing else changes in the records) and sessions get
   closed: fine as long as every session of r that is still open stays in its table. *)
Lemma WFd_remove : forall c s r s',
  WFd c s -> table s' = table s -> nrec s' = nrec s -> nses s' = nses s -> g_log s' = g_log s ->
  (forall i, i <> r -> recs s' i = recs s i) ->
  r_uid (recs s' r) = r_uid (recs s r) -> r_bypass (recs s' r) = r_bypass (recs s r) ->
  incl (r_sess (recs s' r)) (r_sess (recs s r)) -> NoDup (map fst (r_sess (recs s' r))) ->
  (forall k, s_owner (sess s' k) = s_owner (sess s k) /\ s_sid (sess s' k) = s_sid (sess s k)
             /\ (s_closed (sess s k) = true -> s_closed (sess s' k) = true)) ->
  (forall k, k < nses s -> s_owner (sess s k) = r -> s_closed (sess s' k) = false ->
             slook (s_sid (sess s k)) (r_sess (recs s' r)) = Some k) ->
  WFd c s'.
Proof.
  intros c s r s' [wt ws wm wn wl wb wg] Et En Ens El Ho Eu Eb Hin Hnd Hs Hl.
  assert (Eu' : forall i, r_uid (recs s' i) = r_uid (recs s i))
    by (intros i; destruct (Nat.eq_dec i r) as [->|ne]; [exact Eu | now rewrite Ho]).
  constructor; rewrite ?Et, ?En, ?Ens, ?El.
  - intros u r0 H. rewrite Eu'. auto.
  - intros k Hk. rewrite (proj1 (Hs k)). auto.
  - intros r0 sd k L H.
    assert (H0 : In (sd, k) (r_sess (recs s r0)))
      by (destruct (Nat.eq_dec r0 r) as [->|ne]; [now apply Hin | now rewrite <- Ho]).
    destruct (Hs k) as (->&->&_). eauto.
  - intros r0 L. destruct (Nat.eq_dec r0 r) as [->|ne]; [exact Hnd | rewrite Ho; auto].
  - intros k Hk Hc. destruct (Hs k) as (Eo&Es&Em). rewrite Eo, Es.
    destruct (Nat.eq_dec (s_owner (sess s k)) r) as [E|ne]; [rewrite E; auto|].
    rewrite Ho by exact ne. apply wl; [exact Hk|].
    destruct (s_closed (sess s k)); [rewrite Em in Hc|]; auto.
  - intros r0 L. rewrite Eu'. destruct (Nat.eq_dec r0 r) as [->|ne]; [rewrite Eb | rewrite Ho]; auto.
  - intros a Ha. destruct (wg a Ha) as (?&?&?&?&?). destruct (Hs (a_ses a)) as (->&->&_).
    rewrite Eu'. auto.
Qed.

Lemma dstep_WFd : forall c s p p' d, WFd c s -> pc_ok s p -> dstep c s p p' d -> WFd c d.
Proof.
  intros c s p p' d W [Hr Hu] D.
  destruct D; try (specialize (Hr _ eq_refl)); try (specialize (Hu _ _ eq_refl)).
  - (* GetUser creates a record *)
    destruct W as [wt ws wm wn wl wb wg]. constructor; sim.
    + intros u0 r0. unfold updN, upd. destruct (N.eqb_spec u0 u) as [->|ne].
      * intros [= <-]. rewrite Nat.eqb_refl. auto.
      * intros E. destruct (wt _ _ E). destruct (Nat.eqb_spec r0 (nrec s)); [lia | auto].
    + intros k Hk. apply ws in Hk. lia.
    + intros r0 sd0 k L. unfold upd. destruct (Nat.eqb_spec r0 (nrec s)); [intros [] | apply wm; lia].
    + intros r0 L. unfold upd. destruct (Nat.eqb_spec r0 (nrec s)); [constructor | apply wn; lia].
    + intros k Hk Hc. rewrite upd_other by (apply ws in Hk; lia). auto.
    + intros r0 L. unfold upd. destruct (Nat.eqb_spec r0 (nrec s)); [auto | apply wb; lia].
    + intros a0 Ha. destruct (wg a0 Ha) as (?&?&?&?&?). rewrite upd_other by lia. auto.
  - (* a connection joins an existing session *)
    destruct W as [wt ws wm wn wl wb wg]. constructor; sim; auto.
    intros a0 [<-|Ha]; [|auto]. destruct (wm _ _ _ Hr (slook_in _ _ _ Hlook)) as (?&?&?). auto.
  - (* GetSession creates a session *)
    destruct W as [wt ws wm wn wl wb wg]. constructor; sim.
    + intros u0 r0 E. destruct (wt _ _ E). split; [auto|].
      destruct (Nat.eq_dec r0 r) as [->|ne]; [now rewrite upd_same | now rewrite upd_other].
    + intros k Hk. destruct (Nat.eq_dec k (nses s)) as [->|ne];
        [now rewrite upd_same | rewrite upd_other by exact ne; apply ws; lia].
    + intros r0 sd0 k L Hin.
      assert (Hold : (sd0, k) = (sd, nses s) /\ r0 = r \/ In (sd0, k) (r_sess (recs s r0))).
      { destruct (Nat.eq_dec r0 r) as [->|ne]; [rewrite upd_same in Hin | rewrite upd_other in Hin by exact ne; auto].
        destruct Hin as [E|Hin]; auto. }
      destruct Hold as [[[= -> ->] ->]|Hold]; [rewrite upd_same; auto|].
      destruct (wm _ _ _ L Hold) as (?&?&?). rewrite upd_other by lia. auto.
    + intros r0 L. destruct (Nat.eq_dec r0 r) as [->|ne]; [rewrite upd_same | rewrite upd_other by exact ne; auto].
      constructor; [now apply slook_none | auto].
    + intros k Hk Hc. destruct (Nat.eq_dec k (nses s)) as [->|ne].
      { rewrite !upd_same. cbn. now rewrite N.eqb_refl. }
      rewrite !upd_other in * by exact ne. assert (Hk' : k < nses s) by lia.
      pose proof (wl _ Hk' Hc) as L.
      destruct (Nat.eq_dec (s_owner (sess s k)) r) as [E|ne2]; [|now rewrite upd_other].
      rewrite E in *. rewrite upd_same. cbn.
      destruct (N.eqb_spec (s_sid (sess s k)) sd) as [E2|]; [congruence | exact L].
    + intros r0 L. destruct (Nat.eq_dec r0 r) as [->|ne]; [rewrite upd_same; subst b; cbn | rewrite upd_other by exact ne]; auto.
    + intros a0 [<-|Ha]; cbn.
      { rewrite !upd_same. auto. }
      destruct (wg a0 Ha) as (?&?&?&?&?). rewrite upd_other by lia. repeat split; auto.
      destruct (Nat.eq_dec (a_rec a0) r) as [E|ne]; [rewrite E in *; now rewrite upd_same | now rewrite upd_other].
  - (* CloseSession removes a session from the table and closes it *)
    subst l'. apply WFd_remove with (r := r) (s := s); sim; auto using upd_other; rewrite ?upd_same; cbn; auto.
    + intros e He. apply sdel_in in He. tauto.
    + apply sdel_nodup, (w_nodup _ _ W), Hr.
    + intros k0. unfold upd. destruct (Nat.eqb_spec k0 k) as [->|]; auto.
    + intros k0 Hk Eo Hc. destruct (Nat.eq_dec k0 k) as [->|ne]; [now rewrite upd_same in Hc|].
      rewrite upd_other in Hc by exact ne. pose proof (w_live _ _ W _ Hk Hc) as L. rewrite Eo in L.
      rewrite slook_sdel_other; [exact L | intros E; rewrite E in L; congruence].
  - (* Nullify *)
    apply WFd_frame with (s := s); auto. intros i. now apply upd_rec_fields.
  - apply WFd_frame with (s := s); auto.
  - (* closeAllSessions *)
    subst b. apply WFd_remove with (r := r) (s := s); sim; auto using upd_other; rewrite ?upd_same; cbn; auto.
    + intros e [].
    + constructor.
    + intros k0. destruct (close_all_owner (r_sess (recs s r)) (sess s) k0). auto using close_all_mono.
    + intros k0 Hk Eo Hc. exfalso. pose proof (w_live _ _ W _ Hk (close_all_open _ _ _ Hc)) as L.
      rewrite Eo in L. apply slook_in in L. apply (close_all_in _ (sess s)) in L. congruence.
  - (* delete(activeUsers, uid) *)
    destruct W as [wt ws wm wn wl wb wg]. constructor; sim; auto.
    intros u0 r0. unfold updN. destruct (N.eqb u0 _); [discriminate | auto].
  - (* updateUsageQueue *)
    apply WFd_frame with (s := s); auto. intros i. sim.
    pose proof (nullify_all_fields (nrec s) (table s) (recs s) (queue s) i) as F.
    rewrite Hnull in F. cbn in F. tauto.
  - apply WFd_frame with (s := s); auto.
  - apply WFd_frame with (s := s); auto.
  - exact W.
Qed.

(* ------------------------------------------------------------------ program counters *)
Lemma seq_pc_rid : forall rest r k r', pc_rid (seq_pc rest r k) = Some r' -> r' = r.
Proof. intros rest r k r'. destruct rest as [|[] ?]; cbn; try congruence. destruct k; cbn; discriminate. Qed.
Lemma seq_pc_du : forall rest r k, pc_du (seq_pc rest r k) = None.
Proof. intros rest r k. destruct rest as [|[] ?]; cbn; auto. destruct k; auto. Qed.
Lemma m9_rid : forall k, pc_rid (m9 k) = None.
Proof. destruct k; auto. Qed.
Lemma m9_du : forall k, pc_du (m9 k) = None.
Proof. destruct k; auto. Qed.

(* where the record named by the next program counter comes from: the previous one, or a look-up *)
Lemma tstep_pc_src : forall c s t ch s', tstep c s t ch = Some s' ->
  (forall r, pc_rid (thr s' t) = Some r -> pc_rid (thr s t) = Some r \/ exists u, table s' u = Some r)
  /\ (forall u r, pc_du (thr s' t) = Some (u, r) -> pc_du (thr s t) = Some (u, r) \/ table s' u = Some r).
Proof.
  intros c s t ch s' H. tstep_cases H c s t; sim; rewrite upd_same; unfold term_enter.
  all: split; [intros r0 E | intros u0 r0 E].
  all: rewrite ?seq_pc_du, ?m9_rid, ?m9_du in E; try apply seq_pc_rid in E; cbn in E; try discriminate E.
  all: try injection E as <-; try subst r0; try subst u0; auto.
  all: right; eauto using updN_same.
Qed.

(* nothing a step does removes a record or changes its uid / bypass flag; new records have no session *)
Lemma dstep_rec_frame : forall c s p p' d r, dstep c s p p' d ->
  nrec s <= nrec d
  /\ (r < nrec s -> r_uid (recs d r) = r_uid (recs s r) /\ r_bypass (recs d r) = r_bypass (recs s r))
  /\ (nrec s <= r -> r < nrec d -> r_sess (recs d r) = []).
Proof.
  intros c s p p' d r D. destruct D; sim; try subst b.
  all: (split; [lia|]); split; intros; try lia; auto.
  all: unfold upd; try (destruct (Nat.eqb_spec r r0) as [->|]; cbn; auto).
  - destruct (Nat.eqb_spec r (nrec s)); [lia | auto].
  - destruct (Nat.eqb_spec r (nrec s)); [reflexivity | lia].
  - pose proof (nullify_all_fields (nrec s) (table s) (recs s) (queue s) r) as F.
    rewrite Hnull in F. cbn in F. tauto.
Qed.

Lemma tstep_WF : forall c s t ch s', WF c s -> tstep c s t ch = Some s' -> WF c s'.
Proof.
  intros c s t ch s' [W Wt] H.
  destruct (tstep_data _ _ _ _ _ H) as (p'&d&D&E&ET&_).
  pose proof (dstep_WFd _ _ _ _ _ W (Wt t) D) as Wd.
  pose proof (fun r => dstep_rec_frame _ _ _ _ _ r D) as Fr.
  destruct E as (Et&En&Er&Ens&Es&_&El&_).
  assert (W' : WFd c s') by (apply WFd_frame with (s := d); auto; rewrite Er; auto).
  assert (Mono : forall p, pc_ok s p -> pc_ok s' p).
  { intros p. apply pc_ok_mono; [rewrite En; apply (Fr 0) | intros r L; rewrite Er; now apply Fr]. }
  constructor; [exact W'|]. intros t0. rewrite ET.
  destruct (Nat.eq_dec t0 t) as [->|ne]; [rewrite upd_same | rewrite upd_other by exact ne; auto].
  destruct (tstep_pc_src _ _ _ _ _ H) as [Sr Su]. rewrite ET, upd_same in Sr, Su. split.
  - intros r Hr. destruct (Sr _ Hr) as [Ho|[u Hu]]; [now apply (Mono _ (Wt t)) | now apply (w_table _ _ W') in Hu].
  - intros u r Hr. destruct (Su _ _ Hr) as [Ho|Hu]; [now apply (Mono _ (Wt t)) | now apply (w_table _ _ W') in Hu].
Qed.

Lemma step_WF : forall c s l s', WF c s -> step c s l = Some s' -> WF c s'.
Proof.
  intros c s l s' HW H. destruct (step_cases _ _ _ _ H) as [(t&ch&_&_&Ht)|E]; [eapply tstep_WF; eauto|].
  assert (Same : forall s1, WFd c s1 -> nrec s1 = nrec s ->
            (forall r, r_uid (recs s1 r) = r_uid (recs s r)) -> thr s1 = thr s -> WF c s1).
  { intros s1 W1 En Eu Et. constructor; [exact W1|]. intros t. rewrite Et.
    apply pc_ok_mono with (s := s); [lia | auto | apply (w_thr _ _ HW)]. }
  destruct E as [o p E|k v Hk _ _ _ Eb|k Hk| |]; cbv zeta.
  - constructor; [apply WFd_frame with (s := s); auto; apply HW|]. sim. intros t. unfold upd.
    destruct (Nat.eqb t (nthr s)); [|apply (w_thr _ _ HW)].
    destruct (start_pc_shape _ _ _ E) as [(? & ? & ->)|[(? & ? & -> & L)|[(? & ->) | -> ]]]; (split; [|discriminate]);
      intros r0 [= <-]; exact L.
  - apply Same; sim; auto.
    + apply WFd_frame with (s := s); sim; auto; [|apply HW]. intros i. now apply upd_rec_fields.
    + intros r. now apply upd_rec_fields.
  - apply Same; sim; auto.
    apply WFd_remove with (r := s_owner (sess s k)) (s := s); sim; auto using incl_refl; try apply HW.
    + apply (w_ses _ _ HW), Hk.
    + intros k0. unfold upd. destruct (Nat.eqb_spec k0 k) as [->|]; auto.
    + intros k0 Hk0 Eo Hc. destruct (Nat.eq_dec k0 k) as [->|ne]; [now rewrite upd_same in Hc|].
      rewrite upd_other in Hc by exact ne. rewrite <- Eo. now apply (w_live _ _ HW).
  - apply Same; sim; auto. apply WFd_frame with (s := s); auto; apply HW.
  - exact HW.
Qed.

Lemma reachable_WF : forall c d nw s, reachable c d nw s -> WF c s.
Proof.
  intros c d nw s [ls H]. eapply (run_inv (WF c)); eauto using step_WF, WF_init.
Qed.

