(* Generated obligations: the atomic steps of the session-pair model (Model/Mux.v), of the
   re-sequencer (Model/Reorder.v) and of the datagram pipe (Model/Datagram.v), checked against
   what tools/lockscan extracts from internal/multiplex on every run (coq/Gen/Atomicity.v).
   The models test-and-set the closed flags in one step, count streams with single atomic
   additions, and treat streamBuffer.Write / the pipe operations / "fill writingFrame, number it,
   send it" as one step each. *)
From Coq Require Import String List Bool.
From Cloak Require Import Gen.Atomicity Proofs.AtomLib.
Import ListNotations.
Local Open Scope string_scope.

Lemma mux_scan_complete : atomicity_errors = [].
Proof. vm_compute. reflexivity. Qed.

Definition mx := "multiplex.".

(* ---- one-shot flags: whoever closes, closes once (st_closed, se_closed, se_broken) *)
Lemma stream_closed_is_one_shot : one_shot_flag mx "Stream.closed" = true.
Proof. vm_compute. reflexivity. Qed.
Lemma session_closed_is_one_shot : one_shot_flag mx "Session.closed" = true.
Proof. vm_compute. reflexivity. Qed.
Lemma switchboard_broken_is_one_shot : one_shot_flag mx "switchboard.broken" = true.
Proof. vm_compute. reflexivity. Qed.

(* ---- counters: se_count moves by single atomic additions, stream ids are drawn atomically *)
Lemma stream_count_only_added_to : only_ops mx "Session.activeStreamCount" ["Add"; "Load"] = true.
Proof. vm_compute. reflexivity. Qed.
Lemma next_stream_id_only_added_to : only_ops mx "Session.nextStreamID" ["Add"] = true.
Proof. vm_compute. reflexivity. Qed.

(* ---- the re-sequencer: Reorder.rb_write is one step.  The sequence test, the hand-over of
   the payload to the byte pipe, the advance of nextRecvSeq and the heap operations all
   happen inside one critical section of recvM *)
Lemma streamBuffer_Write_one_step :
  one_step "multiplex.streamBuffer.Write" "streamBuffer.recvM"
    [is_read "streamBuffer.nextRecvSeq"; is_write "streamBuffer.nextRecvSeq";
     is_access "streamBuffer.sh"; is_read "streamBuffer.buf"; is_call "streamBufferedPipe.Write"] [] = true.
Proof. vm_compute. reflexivity. Qed.
Lemma streamBuffer_Close_one_step :
  one_step "multiplex.streamBuffer.Close" "streamBuffer.recvM"
    [is_read "streamBuffer.buf"; is_call "streamBufferedPipe.Close"] [] = true.
Proof. vm_compute. reflexivity. Qed.

(* ---- the pipes (pipe_write / drain in Reorder.v, dg_write / dg_read / dg_close in
   Datagram.v are single steps): every operation touches the buffer, the length queue and
   the closed flag inside one critical section of the condition variable's mutex *)
Definition sp := "streamBufferedPipe.rwCond.L".
Definition dp := "datagramBufferedPipe.rwCond.L".
Lemma stream_pipe_operations_one_step :
  one_step_with_wait "multiplex.streamBufferedPipe.Write" sp
    [is_read "streamBufferedPipe.closed"; is_read "streamBufferedPipe.buf"; is_call "streamBufferedPipe.buf.Write"] [] = true
  /\ one_step_with_wait "multiplex.streamBufferedPipe.Read" sp
    [is_read "streamBufferedPipe.closed"; is_read "streamBufferedPipe.buf"; is_call "streamBufferedPipe.buf.Read"] [] = true
  /\ one_step "multiplex.streamBufferedPipe.Close" sp [is_write "streamBufferedPipe.closed"] [] = true.
Proof. repeat split; vm_compute; reflexivity. Qed.
Lemma datagram_pipe_operations_one_step :
  one_step_with_wait "multiplex.datagramBufferedPipe.Write" dp
    [is_access "datagramBufferedPipe.closed"; is_access "datagramBufferedPipe.pLens";
     is_read "datagramBufferedPipe.buf"; is_call "datagramBufferedPipe.buf.Write"] [] = true
  /\ one_step_with_wait "multiplex.datagramBufferedPipe.Read" dp
    [is_read "datagramBufferedPipe.closed"; is_access "datagramBufferedPipe.pLens";
     is_read "datagramBufferedPipe.buf"; is_call "datagramBufferedPipe.buf.Read"] [] = true
  /\ one_step "multiplex.datagramBufferedPipe.Close" dp [is_write "datagramBufferedPipe.closed"] [] = true.
Proof. repeat split; vm_compute; reflexivity. Qed.

(* ---- the sender: "set the payload, number the frame, put it on the wire" is one step
   per frame under writingM (C13: numbering = emission order) *)
Definition wm := "Stream.writingM".
Lemma Stream_Write_frame_one_step :
  one_step "multiplex.Stream.Write" wm
    [is_call "Stream.isClosed"; is_write "Stream.writingFrame"; is_call "Stream.obfuscateAndSend"] [] = true.
Proof. vm_compute. reflexivity. Qed.
Lemma Stream_ReadFrom_frame_one_step :
  one_step "multiplex.Stream.ReadFrom" wm
    [is_write "Stream.writingFrame"; is_call "Stream.obfuscateAndSend"] [] = true.
Proof. vm_compute. reflexivity. Qed.
Lemma Stream_Close_one_step :
  one_step "multiplex.Stream.Close" wm [is_call "Session.closeStream"] [] = true.
Proof. vm_compute. reflexivity. Qed.
(* the helpers that touch writingFrame are only ever entered with writingM held *)
Lemma sender_helpers_entered_locked :
  entry_holds "multiplex.Stream.obfuscateAndSend" wm = true
  /\ entry_holds "multiplex.Session.closeStream[active=true]" wm = true.
Proof. split; vm_compute; reflexivity. Qed.

(* ---- the stream table: registration and the session-wide sweep are single steps *)
Definition sm := "Session.streamsM".
Lemma OpenStream_register_one_step :
  one_step "multiplex.Session.OpenStream" sm
    [is_call "Session.streamCountIncr"; is_write "Session.streams"] [is_call "Session.IsClosed"] = true.
Proof. vm_compute. reflexivity. Qed.
Lemma recvDataFromRemote_register_one_step :
  one_step "multiplex.Session.recvDataFromRemote" sm
    [is_read "Session.streams"; is_call "Session.streamCountIncr"; is_write "Session.streams";
     is_access "Session.acceptCh"] [is_call "Session.IsClosed"] = true.
Proof. vm_compute. reflexivity. Qed.
Lemma closeSession_sweep_one_step :
  one_step "multiplex.Session.closeSession" sm
    [is_write "Session.acceptCh"; is_read "Session.streams"; is_atomic "Stream.closed";
     is_write "Session.streams"; is_call "Session.streamCountDecr"] [] = true.
Proof. vm_compute. reflexivity. Qed.
Lemma closeStream_table_update_locked :
  always_under "multiplex.Session.closeStream" sm (is_access "Session.streams") = true.
Proof. vm_compute. reflexivity. Qed.

(* ---- addConn: a connection id is published only after the connection is stored under it *)
Lemma addConn_store_and_publish_one_step :
  one_step "multiplex.switchboard.addConn" "switchboard.addConnM"
    [is_atomic "switchboard.connsCount"; is_call "switchboard.conns.Store"] [] = true.
Proof. vm_compute. reflexivity. Qed.

(* ---- pooled frame buffers, receive frames and PRNGs are not touched after Put (a second
   writer may already own them) *)
Lemma mux_pools_no_use_after_put :
  put_is_last_use "multiplex.Stream.Write" = true /\ put_is_last_use "multiplex.Stream.ReadFrom" = true
  /\ put_is_last_use "multiplex.Session.closeStream" = true
  /\ put_is_last_use "multiplex.Session.recvDataFromRemote" = true
  /\ put_is_last_use "multiplex.switchboard.pickRandConn" = true.
Proof. repeat split; vm_compute; reflexivity. Qed.

(* ... in whatever function the Put is written (a helper that hands out a view of the buffer it has
   already put back - a deferred Put followed by `return buf` - is a use after the Put) *)
Lemma mux_no_pooled_object_used_after_put_anywhere : no_use_after_put_anywhere = true.
Proof. vm_compute. reflexivity. Qed.

(* ---- a blocked writer must not be able to stop the receive loop.  Writers hold writingM
   across the blocking send (Stream.Write / ReadFrom / Close -> obfuscateAndSend ->
   switchboard.send -> conn.Write); the send of one side completes only when the other side's
   receive loop (switchboard.deplex) reads again.  If anything on the receive path waited for a
   mutex held across a send, both sides' loops could wait for their own writers for ever - a
   deadlock without any lock-order cycle.  The model's deliver / read labels are always
   enabled, i.e. it assumes the discipline: no mutex that may be held across the send is
   acquired by (or held on entry to) a function reachable from deplex.  Computed here from the
   call graph of the scanner (bool specialisations: closeStream[active=false] is what the
   receive path reaches) *)
Definition conn_write := "net.Conn.Write".
Lemma writingM_is_held_across_the_send :
  mem_s "multiplex.switchboard.send" (sinks mx conn_write) = true
  /\ mem_s "Stream.writingM" (held_across mx conn_write) = true.
Proof. split; vm_compute; reflexivity. Qed.
(* not vacuous: the receive path does get to the passive close of a stream and to the re-sequencer *)
Lemma receive_path_reaches_stream_close :
  let r := reachable_from ["multiplex.switchboard.deplex"] in
  mem_s "multiplex.Session.closeStream[active=false]" r = true
  /\ mem_s "multiplex.streamBuffer.Write" r = true.
Proof. split; vm_compute; reflexivity. Qed.
Lemma receive_path_takes_no_lock_held_across_send :
  path_avoids_send_locks mx conn_write "multiplex.switchboard.deplex" = true.
Proof. vm_compute. reflexivity. Qed.

(* ---- entries of the stream table: closeStream overwrites its entry with nil (the id stays
   known), only the sweep of closeSession deletes (se_tab) *)
Lemma stream_table_entries_deleted_only_by_closeSession :
  removed_only_in mx "Session.streams" ["multiplex.Session.closeSession"] = true
  /\ never_aliased mx "Session.streams" = true /\ deletes_are_on_fields mx = true.
Proof. repeat split; vm_compute; reflexivity. Qed.

(* ---- Session.Close: the one-shot transition (closeSession: compare-and-swap on the closed flag) comes
   BEFORE the closing notice is built and sent, so of several overlapping Close calls only the winner
   puts a session-closing frame - stream id 0xffffffff, sequence number 0, i.e. one fixed nonce - on the
   wire (C13: no two messages of an endpoint share a (stream id, sequence number) pair). *)
Fixpoint index_of (p : ev -> bool) (l : list ev) : option nat :=
  match l with
  | [] => None
  | e :: t => if p e then Some O else match index_of p t with Some n => Some (S n) | None => None end
  end.
Definition happens_before (f : string) (a b : ev -> bool) : bool :=
  match index_of a (events_of f), index_of b (events_of f) with
  | Some i, Some j => Nat.ltb i j
  | _, _ => false
  end.
Lemma Session_Close_wins_the_flag_before_it_sends :
  happens_before "multiplex.Session.Close" (is_call "Session.closeSession") (is_call "Session.obfuscate") = true
  /\ happens_before "multiplex.Session.Close" (is_call "Session.closeSession") (is_call "switchboard.send") = true.
Proof. split; vm_compute; reflexivity. Qed.

(* ---- the pipes wake EVERY waiter (sync.Cond.Broadcast), never just one (Signal): a write may have to
   release a reader and a parked deadline watcher alike, and a close must release every goroutine parked in
   Read on that buffer (C12: every blocked read returns; Model/Mux.v resolves ALL pending reads of a closed
   stream) *)
Definition calls_in (f c : string) : bool := existsb (is_call c) (events_of f).
Definition no_signal_in_package (pkg : string) : bool :=
  forallb (fun fe : string * list ev =>
             negb (prefix pkg (fst fe)) || negb (existsb (fun e : ev => seqb (fst e) "call" && ends_with ".Signal" (snd e)) (snd fe))) fn_events.
Lemma pipes_wake_every_waiter :
  calls_in "multiplex.streamBufferedPipe.Write" "streamBufferedPipe.rwCond.Broadcast" = true
  /\ calls_in "multiplex.streamBufferedPipe.Close" "streamBufferedPipe.rwCond.Broadcast" = true
  /\ calls_in "multiplex.datagramBufferedPipe.Write" "datagramBufferedPipe.rwCond.Broadcast" = true
  /\ calls_in "multiplex.datagramBufferedPipe.Close" "datagramBufferedPipe.rwCond.Broadcast" = true
  /\ no_signal_in_package "multiplex." = true.
Proof. repeat split; vm_compute; reflexivity. Qed.
