(* Proofs about the replay memory model (Model/Replay.v) - property C08. *)
From Coq Require Import ZArith NArith List Bool Lia.
From Coq Require Import ZifyN ZifyNat ZifyBool.
From Cloak Require Import Gen.Consts Model.Replay Proofs.ListFacts.
Import ListNotations.
Local Open Scope Z_scope.

(* facts about the constants the Go compiler printed into Gen/Consts.v *)
Lemma tolerance_value : tolerance = 180 * ns_per_s.
Proof. reflexivity. Qed.
Lemma tolerance_whole_seconds : tolerance mod ns_per_s = 0 /\ 0 < tolerance.
Proof. split; reflexivity. Qed.
Lemma clean_period_pos : 0 < clean_period.
Proof. reflexivity. Qed.
(* the cleaner's period is irrelevant to soundness but must exceed the retention span for
   the cache to stay bounded by the traffic of one period plus 6 minutes *)
Lemma clean_period_exceeds_retention : 2 * tolerance < clean_period.
Proof. reflexivity. Qed.

Ltac unf := unfold tolerance, ns_per_s, server_timestampTolerance_ns in *.

Lemma bytes_eqb_eq : forall a b, bytes_eqb a b = true <-> a = b.
Proof.
  induction a as [|x a IH]; destruct b as [|y b]; cbn [bytes_eqb]; split; intro H;
    try reflexivity; try discriminate.
  - apply andb_true_iff in H as [H1 H2]. apply N.eqb_eq in H1. apply IH in H2. now subst.
  - injection H as -> ->. apply andb_true_iff. split; [apply N.eqb_refl | now apply IH].
Qed.

Lemma bytes_eqb_refl : forall a, bytes_eqb a a = true.
Proof. intro a. now apply bytes_eqb_eq. Qed.

Lemma bytes_eqb_neq : forall a b, a <> b -> bytes_eqb a b = false.
Proof. intros a b H. destruct (bytes_eqb a b) eqn:E; [apply bytes_eqb_eq in E; contradiction | reflexivity]. Qed.

Lemma lookup_store_same : forall k v c, lookup k (store k v c) = Some v.
Proof.
  induction c as [|[k' v'] c IH]; cbn [store lookup].
  - now rewrite bytes_eqb_refl.
  - destruct (bytes_eqb k k') eqn:E; cbn [lookup]; [now rewrite bytes_eqb_refl | now rewrite E].
Qed.

Lemma lookup_store_other : forall k k' v c, k <> k' -> lookup k (store k' v c) = lookup k c.
Proof.
  intros k k' v c Hne. induction c as [|[k2 v2] c IH]; cbn [store lookup].
  - now rewrite (bytes_eqb_neq _ _ Hne).
  - destruct (bytes_eqb k' k2) eqn:E; cbn [lookup].
    + apply bytes_eqb_eq in E. subst k2. now rewrite (bytes_eqb_neq _ _ Hne).
    + now rewrite IH.
Qed.

Lemma lookup_clean_keep : forall rule k s c now,
  lookup k c = Some s -> rule s now = false -> lookup k (clean rule c now) = Some s.
Proof.
  intros rule k s c now. induction c as [|[k' v'] c IH]; cbn [lookup clean filter snd]; intros Hl Hr.
  - discriminate.
  - destruct (bytes_eqb k k') eqn:E.
    + injection Hl as ->. rewrite Hr. cbn [negb lookup]. now rewrite E.
    + destruct (negb (rule v' now)); cbn [lookup]; [rewrite E|]; now apply IH.
Qed.

Lemma run_app : forall rule keyfn a b c,
  run rule keyfn c (a ++ b) =
  let (c1, o1) := run rule keyfn c a in
  let (c2, o2) := run rule keyfn c1 b in (c2, o1 ++ o2).
Proof.
  induction a as [|e a IH]; intros b c; cbn [run app].
  - now destruct (run rule keyfn c b).
  - destruct (step rule keyfn c e) as [c' o]. rewrite IH.
    destruct (run rule keyfn c' a) as [c1 o1]. now destruct (run rule keyfn c1 b).
Qed.

Lemma run_length : forall rule keyfn h c, length (snd (run rule keyfn c h)) = length h.
Proof.
  induction h as [|e h IH]; intro c; cbn [run]; [reflexivity|].
  destruct (step rule keyfn c e) as [c' o]. specialize (IH c').
  destruct (run rule keyfn c' h). cbn [snd length] in *. now rewrite IH.
Qed.

Lemma run_app_fst : forall rule keyfn a b c,
  fst (run rule keyfn c (a ++ b)) = fst (run rule keyfn (fst (run rule keyfn c a)) b).
Proof.
  intros. rewrite run_app. destruct (run rule keyfn c a) as [c1 o1]. cbn [fst].
  now destruct (run rule keyfn c1 b).
Qed.

(* the outcome of an event is that of its step from the cache the events before it leave *)
Lemma outcome_at : forall rule keyfn h1 e h2,
  nth_error (outcomes rule keyfn (h1 ++ e :: h2)) (length h1)
  = Some (snd (step rule keyfn (fst (run rule keyfn [] h1)) e)).
Proof.
  intros. unfold outcomes. rewrite run_app.
  pose proof (run_length rule keyfn h1 []) as L.
  destruct (run rule keyfn [] h1) as [c1 o1]. cbn [snd fst] in *. cbn [run].
  destruct (step rule keyfn c1 e) as [c2 o]. destruct (run rule keyfn c2 h2) as [c3 o2]. cbn [snd].
  rewrite <- L, nth_error_app2, Nat.sub_diag by apply le_n. reflexivity.
Qed.

(* the position of the second of two marked events, in the form [outcome_at] reads *)
Lemma second_position : forall rule keyfn h1 e1 h2 e2 h3,
  nth_error (outcomes rule keyfn (h1 ++ e1 :: h2 ++ e2 :: h3)) (length h1 + 1 + length h2)
  = nth_error (outcomes rule keyfn ((h1 ++ e1 :: h2) ++ e2 :: h3)) (length (h1 ++ e1 :: h2)).
Proof. intros. rewrite <- app_assoc, app_length. cbn [app length]. f_equal. lia. Qed.

Lemma accept_inv : forall rule keyfn h1 p t1 t2 h2,
  nth_error (outcomes rule keyfn (h1 ++ Present p t1 t2 :: h2)) (length h1) = Some (Some OAccept) ->
  p_parses p = true /\ exists ts, p_auth p = Some ts /\ in_window ts t2 = true.
Proof.
  intros rule keyfn h1 p t1 t2 h2 H. rewrite outcome_at in H. cbn [step] in H.
  destruct (present keyfn (fst (run rule keyfn [] h1)) p t1 t2) as [c o] eqn:E. cbn [snd] in H.
  injection H as ->. unfold present in E.
  destruct (p_parses p); cbn [negb] in E; [|discriminate]. split; [reflexivity|].
  destruct (register keyfn (fst (run rule keyfn [] h1)) (p_random p) t1) as [c' used].
  destruct used; [discriminate|]. destruct (p_auth p) as [ts|]; [|discriminate].
  destruct (in_window ts t2) eqn:W; [|discriminate]. now exists ts.
Qed.

Definition last_time (lb : Z) (h : list event) : Z := fold_left (fun _ e => ev_time e) h lb.

Lemma ordered_app : forall a b lb,
  ordered lb (a ++ b) = true <-> ordered lb a = true /\ ordered (last_time lb a) b = true.
Proof.
  unfold last_time. induction a as [|e a IH]; intros b lb; cbn [app ordered fold_left]; [tauto|].
  rewrite !andb_true_iff, IH. tauto.
Qed.

Lemma last_time_ge : forall h lb, ordered lb h = true -> lb <= last_time lb h.
Proof.
  unfold last_time. induction h as [|e h IH]; intros lb H; cbn [ordered fold_left] in *; [lia|].
  apply andb_true_iff in H as [H1 H2]. apply andb_true_iff in H1 as [H1 _].
  apply IH in H2. lia.
Qed.

(* [covered c lb k ts]: every time from lb on at which a packet with cache key k and timestamp
   ts could still be inside the window finds the key in the cache.  Either an entry is there
   whose stored second s is recent enough (the window of ts closes no later than second
   s + 360, and the fixed rule keeps s until then), or the window is closed for good. *)
Definition covered (c : cache) (lb : Z) (k : list N) (ts : Z) : Prop :=
  (exists s, lookup k c = Some s /\ ts <= s + 180 /\ s * ns_per_s <= lb)
  \/ ts * ns_per_s + tolerance <= lb.

Lemma covered_clean : forall c lb k ts t,
  covered c lb k ts -> lb <= t -> covered (clean rule_fixed c t) t k ts.
Proof.
  intros c lb k ts t [(s & Hl & Hts & Hs) | Hc] Hle.
  - destruct (rule_fixed s t) eqn:R.
    + right. unfold rule_fixed in R. unf. lia.
    + left. exists s. split; [now apply lookup_clean_keep | split; [exact Hts | lia]].
  - right. lia.
Qed.

Lemma covered_register : forall keyfn c lb k ts r t,
  covered c lb k ts -> lb <= t -> covered (fst (register keyfn c r t)) t k ts.
Proof.
  intros keyfn c lb k ts r t Hc Hle. unfold register. cbn [fst].
  destruct Hc as [(s & Hl & Hts & Hs) | Hc]; [|right; lia].
  left. destruct (list_eq_dec N.eq_dec k (keyfn r)) as [->|Hne].
  - exists (t / ns_per_s). rewrite lookup_store_same. split; [reflexivity|]. unf. lia.
  - exists s. rewrite (lookup_store_other _ _ _ _ Hne). split; [exact Hl | split; [exact Hts | lia]].
Qed.

Lemma present_cache : forall keyfn c p t1 t2,
  fst (present keyfn c p t1 t2) = if p_parses p then fst (register keyfn c (p_random p) t1) else c.
Proof.
  intros. unfold present. destruct (p_parses p); cbn [negb]; [|reflexivity].
  destruct (register keyfn c (p_random p) t1) as [c' used]. cbn [fst].
  destruct used; [reflexivity|]. destruct (p_auth p) as [ts|]; [destruct (in_window ts t2)|]; reflexivity.
Qed.

Lemma covered_step : forall keyfn c lb k ts e,
  covered c lb k ts -> lb <= ev_time e ->
  covered (fst (step rule_fixed keyfn c e)) (ev_time e) k ts.
Proof.
  intros keyfn c lb k ts [p t1 t2 | t] Hc Hle; cbn [step ev_time] in *.
  - pose proof (present_cache keyfn c p t1 t2) as E.
    destruct (present keyfn c p t1 t2) as [c' o]. cbn [fst] in *. rewrite E.
    destruct (p_parses p); [now apply covered_register with (lb := lb)|].
    destruct Hc as [(s & Hl & Hts & Hs) | Hc]; [left; exists s; repeat split; try assumption; lia | right; lia].
  - now apply covered_clean with (lb := lb).
Qed.

Lemma covered_run : forall keyfn h c lb k ts,
  covered c lb k ts -> ordered lb h = true ->
  covered (fst (run rule_fixed keyfn c h)) (last_time lb h) k ts.
Proof.
  unfold last_time. induction h as [|e h IH]; intros c lb k ts Hc Ho; cbn [run fold_left ordered] in *.
  - exact Hc.
  - apply andb_true_iff in Ho as [Ho1 Ho2]. apply andb_true_iff in Ho1 as [Ho1 _].
    pose proof (covered_step keyfn c lb k ts e Hc ltac:(lia)) as Hs.
    destruct (step rule_fixed keyfn c e) as [c' o]. cbn [fst] in Hs.
    specialize (IH c' (ev_time e) k ts Hs Ho2).
    destruct (run rule_fixed keyfn c' h) as [c'' os]. exact IH.
Qed.

(* acceptance establishes the invariant.  The stored second is t1/10^9; the window was judged at
   t2 in the same second, so ts <= s + 180 (ts is a whole second and ts*10^9 < t2 + 180 s). *)
Lemma accept_covered : forall keyfn c p t1 t2 c',
  present keyfn c p t1 t2 = (c', OAccept) ->
  t1 / ns_per_s = t2 / ns_per_s ->
  exists ts, p_auth p = Some ts /\ in_window ts t2 = true /\ covered c' t1 (keyfn (p_random p)) ts.
Proof.
  intros keyfn c p t1 t2 c' H Hsec. unfold present in H.
  destruct (p_parses p); cbn [negb] in H; [|discriminate].
  unfold register in H.
  destruct (lookup (keyfn (p_random p)) c); [discriminate|].
  destruct (p_auth p) as [ts|]; [|discriminate].
  destruct (in_window ts t2) eqn:W; [|discriminate].
  injection H as <-. exists ts. split; [reflexivity|]. split; [exact W|].
  left. exists (t1 / ns_per_s). rewrite lookup_store_same. split; [reflexivity|].
  unfold in_window in W. unf. lia.
Qed.

(* a covered packet presented while its timestamp is inside the window hits the cache *)
Lemma covered_hit : forall keyfn c lb ts q t1 t2,
  covered c lb (keyfn (p_random q)) ts -> p_parses q = true ->
  lb <= t1 -> t1 <= t2 -> in_window ts t2 = true ->
  snd (present keyfn c q t1 t2) = OReplay.
Proof.
  intros keyfn c lb ts q t1 t2 Hc Hp H1 H2 W. unfold present, register. rewrite Hp. cbn [negb].
  destruct Hc as [(s & Hl & _ & _) | Hc].
  - rewrite Hl. reflexivity.
  - unfold in_window in W. unf. lia.
Qed.

Theorem cache_sound :
  forall keyfn lb0 h1 h2 h3 p t1 t1' q t2 t2' ts,
  let h := h1 ++ Present p t1 t1' :: h2 ++ Present q t2 t2' :: h3 in
  ordered lb0 h = true ->
  t1 / ns_per_s = t1' / ns_per_s ->
  nth_error (outcomes rule_fixed keyfn h) (length h1) = Some (Some OAccept) ->
  p_auth p = Some ts ->
  keyfn (p_random q) = keyfn (p_random p) -> p_parses q = true ->
  in_window ts t2' = true ->
  nth_error (outcomes rule_fixed keyfn h) (length h1 + 1 + length h2) = Some (Some OReplay).
Proof.
  intros keyfn lb0 h1 h2 h3 p t1 t1' q t2 t2' ts h Hord Hsec Hacc Hauth Hkey Hparse Hwin. subst h.
  rewrite outcome_at in Hacc. rewrite second_position, outcome_at, run_app_fst.
  cbn [run step] in Hacc |- *.
  (* the clock: lb0 ... <= t1 <= (events of h2) <= t2 <= t2' *)
  apply ordered_app in Hord as [_ Hord]. cbn [ordered ev_time] in Hord.
  apply andb_true_iff in Hord as [_ Hord]. apply ordered_app in Hord as [Hord2 Hord3].
  cbn [ordered ev_time] in Hord3. apply andb_true_iff in Hord3 as [Ht2 _].
  pose proof (last_time_ge h2 t1 Hord2) as Hge.
  (* the acceptance puts the key under cover, the run over h2 keeps it there, so the second presentation hits *)
  destruct (present keyfn (fst (run rule_fixed keyfn [] h1)) p t1 t1') as [c2 op] eqn:Ep.
  cbn [snd fst] in Hacc |- *. injection Hacc as ->.
  apply accept_covered in Ep as (ts' & Hauth' & _ & Hcov); [|exact Hsec].
  rewrite Hauth in Hauth'. injection Hauth' as <-.
  pose proof (covered_run keyfn h2 c2 t1 _ _ Hcov Hord2) as Hrun. rewrite <- Hkey in Hrun.
  destruct (run rule_fixed keyfn c2 h2) as [c3 o2]. cbn [fst] in Hrun |- *.
  pose proof (covered_hit keyfn c3 _ ts q t2 t2' Hrun Hparse) as Hhit.
  destruct (present keyfn c3 q t2 t2') as [c4 oq]. cbn [snd] in Hhit |- *.
  rewrite Hhit by (exact Hwin || lia). reflexivity.
Qed.

(* the same packet (same cache key, same timestamp) is accepted at most once *)
Corollary cache_at_most_one :
  forall keyfn lb0 h1 h2 h3 p t1 t1' q t2 t2',
  let h := h1 ++ Present p t1 t1' :: h2 ++ Present q t2 t2' :: h3 in
  ordered lb0 h = true ->
  t1 / ns_per_s = t1' / ns_per_s ->
  keyfn (p_random q) = keyfn (p_random p) -> p_auth q = p_auth p ->
  nth_error (outcomes rule_fixed keyfn h) (length h1) = Some (Some OAccept) ->
  nth_error (outcomes rule_fixed keyfn h) (length h1 + 1 + length h2) <> Some (Some OAccept).
Proof.
  intros keyfn lb0 h1 h2 h3 p t1 t1' q t2 t2' h Hord Hsec Hkey Hauth Hacc1 Hacc2.
  pose proof Hacc2 as Hq. unfold h in Hq. rewrite second_position in Hq.
  apply accept_inv in Hq as (Hp & ts & Hq & W). rewrite Hauth in Hq.
  pose proof (cache_sound keyfn lb0 h1 h2 h3 p t1 t1' q t2 t2' ts Hord Hsec Hacc1 Hq Hkey Hp W) as R.
  fold h in R. rewrite R in Hacc2. discriminate.
Qed.

Definition pk (ts : Z) : packet := mkP true (repeat 7%N 32) (Some ts).

(* tolerance-only retention: accepted at second 1000 with ts = 1179 (client clock 179 s ahead);
   a clean-up 181 s later drops the entry; the replay 1 s after that is inside the window *)
Definition history_one : list event :=
  [Present (pk 1179) (1000 * ns_per_s) (1000 * ns_per_s);
   Clean (1181 * ns_per_s);
   Present (pk 1179) (1182 * ns_per_s) (1182 * ns_per_s)].

Lemma rule_one_unsound :
  ordered 0 history_one = true /\
  outcomes rule_one mask255 history_one = [Some OAccept; None; Some OAccept].
Proof. split; vm_compute; reflexivity. Qed.

Lemma rule_fixed_on_history_one :
  outcomes rule_fixed mask255 history_one = [Some OAccept; None; Some OReplay].
Proof. vm_compute. reflexivity. Qed.

(* F1, the pre-fix cleaner: Present p t; Clean (t + 1 s); Present p (t + 2 s) *)
Definition history_F1 (t : Z) : list event :=
  [Present (pk (t / ns_per_s)) t t; Clean (t + ns_per_s); Present (pk (t / ns_per_s)) (t + 2 * ns_per_s) (t + 2 * ns_per_s)].

(* on that history the second presentation is accepted exactly when the clean-up in between evicts the entry *)
Lemma history_F1_outcomes : forall rule t, 0 <= t ->
  outcomes rule mask255 (history_F1 t) =
  [Some OAccept; None; Some (if rule (t / ns_per_s) (t + ns_per_s) then OAccept else OReplay)].
Proof.
  intros rule t Ht.
  unfold history_F1, outcomes. cbn [run step present register p_parses pk p_random p_auth negb lookup store].
  assert (W1 : in_window (t / ns_per_s) t = true) by (unfold in_window; unf; lia).
  assert (W2 : in_window (t / ns_per_s) (t + 2 * ns_per_s) = true) by (unfold in_window; unf; lia).
  rewrite W1. cbn [clean filter snd].
  destruct (rule (t / ns_per_s) (t + ns_per_s)); cbn [negb lookup]; [rewrite W2 | rewrite bytes_eqb_refl]; reflexivity.
Qed.

Lemma prefix_cleaner_unsound : forall t, 0 <= t ->
  ordered 0 (history_F1 t) = true /\
  outcomes rule_prefix mask255 (history_F1 t) = [Some OAccept; None; Some OAccept].
Proof.
  intros t Ht. split; [unfold history_F1; cbn [ordered ev_time]; unf; lia|].
  rewrite history_F1_outcomes by exact Ht.
  replace (rule_prefix (t / ns_per_s) (t + ns_per_s)) with true by (unfold rule_prefix; unf; lia). reflexivity.
Qed.

Lemma fixed_cleaner_on_F1 : forall t, 0 <= t ->
  outcomes rule_fixed mask255 (history_F1 t) = [Some OAccept; None; Some OReplay].
Proof.
  intros t Ht. rewrite history_F1_outcomes by exact Ht.
  replace (rule_fixed (t / ns_per_s) (t + ns_per_s)) with false by (unfold rule_fixed; unf; lia). reflexivity.
Qed.

(* the two clock reads of AuthFirstPacket: if they straddle a second boundary the stored second
   is one less than the one the window was judged in, and the theorem's same-second premise is
   needed: accepted at 999.9999999 / 1000.000000001 with ts = 1180; clean-up just after
   second 1359 + 1 ns ... the entry (second 999) is older than 360 s, the window (until 1360) is open *)
Definition history_two_reads : list event :=
  [Present (pk 1180) (1000 * ns_per_s - 1) (1000 * ns_per_s + 1);
   Clean (1359 * ns_per_s + 1);
   Present (pk 1180) (1359 * ns_per_s + 2) (1359 * ns_per_s + 2)].

Lemma two_reads_gap :
  ordered 0 history_two_reads = true /\
  outcomes rule_fixed mask255 history_two_reads = [Some OAccept; None; Some OAccept].
Proof. split; vm_compute; reflexivity. Qed.

Lemma land_flip : forall b, N.land (N.lxor b 128) 127 = N.land b 127.
Proof.
  intro b. apply N.bits_inj. intro n. rewrite !N.land_spec, N.lxor_spec.
  change 128%N with (2 ^ 7)%N. change 127%N with (N.ones 7). rewrite N.pow2_bits_eqb.
  destruct (N.lt_ge_cases n 7) as [H|H].
  - rewrite N.ones_spec_low by exact H. replace (7 =? n)%N with false by (symmetry; apply N.eqb_neq; lia).
    now rewrite xorb_false_r.
  - rewrite N.ones_spec_high by exact H. now rewrite !andb_false_r.
Qed.

Lemma mask_flip : forall r, mask255 (flip255 r) = mask255 r.
Proof.
  intro r. unfold mask255, flip255, upd31.
  destruct (skipn 31 r) as [|b t] eqn:E.
  - assert (L : (length r <= 31)%nat).
    { destruct (Nat.le_gt_cases (length r) 31) as [H|H]; [exact H|].
      apply (f_equal (@length N)) in E. rewrite skipn_length in E. cbn in E. lia. }
    rewrite !app_nil_r, !(firstn_all2 r L), E. cbv iota. now rewrite app_nil_r.
  - assert (L : length (firstn 31 r) = 31%nat).
    { rewrite firstn_length. apply (f_equal (@length N)) in E. rewrite skipn_length in E. cbn in E. lia. }
    rewrite firstn_app_exact, skipn_app_exact by exact L. now rewrite land_flip.
Qed.

(* flip255 really changes a well-formed 32-byte value, so the raw key misses *)
Lemma flip_changes : forall r, length r = 32%nat -> flip255 r <> r.
Proof.
  intros r L E. unfold flip255, upd31 in E.
  rewrite <- (firstn_skipn 31 r) in E at 3.
  apply app_inv_head in E.
  destruct (skipn 31 r) as [|b t] eqn:S.
  - apply (f_equal (@length N)) in S. rewrite skipn_length in S. cbn in S. lia.
  - injection E as E. apply (f_equal (fun x => N.testbit x 7)) in E.
    rewrite N.lxor_spec in E. change (N.testbit 128 7) with true in E. destruct (N.testbit b 7); discriminate.
Qed.

Definition rnd0 : list N := repeat 9%N 32.
Definition history_F2 : list event :=
  [Present (mkP true rnd0 (Some 1000)) (1000 * ns_per_s) (1000 * ns_per_s);
   Present (mkP true (flip255 rnd0) (Some 1000)) (1001 * ns_per_s) (1001 * ns_per_s)].

Lemma rawkey_unsound :
  outcomes rule_fixed rawkey history_F2 = [Some OAccept; Some OAccept]
  /\ outcomes rule_fixed mask255 history_F2 = [Some OAccept; Some OReplay].
Proof. split; vm_compute; reflexivity. Qed.

Lemma set_nth_length : forall {A} i (x : A) l, length (set_nth i x l) = length l.
Proof. induction i; destruct l; cbn; auto. Qed.

Lemma misses_set_nth : forall i st st' ts,
  nth_error ts i = Some st ->
  (misses (set_nth i st' ts) + (if missed st then 1 else 0) = misses ts + (if missed st' then 1 else 0))%nat.
Proof.
  unfold misses. induction i as [|i IH]; intros st st' [|x ts] H; cbn [nth_error] in H; try discriminate.
  - injection H as ->. cbn [set_nth filter]. destruct (missed st), (missed st'); cbn [length]; lia.
  - cbn [set_nth filter]. specialize (IH st st' ts H). destruct (missed x); cbn [length]; lia.
Qed.

Definition all_start (ts : list tstate) : Prop := Forall (fun st => st = TStart) ts.
Lemma all_start_misses : forall ts, all_start ts -> misses ts = 0%nat.
Proof. unfold misses. induction 1 as [|x l Hx _ IH]; cbn [filter]; [reflexivity|]. now subst. Qed.

(* the invariant: nobody has touched the cache yet, or exactly one thread was told "new" *)
Definition conc_inv (k : list N) (c : cache) (ts : list tstate) : Prop :=
  (lookup k c = None /\ all_start ts) \/ (lookup k c <> None /\ misses ts = 1%nat).

Lemma started_inv : forall k c ts i st, conc_inv k c ts -> nth_error ts i = Some st -> st <> TStart ->
  lookup k c <> None /\ misses ts = 1%nat.
Proof.
  intros k c ts i st [[_ Hall]|H] Hn Hst; [|exact H]. exfalso. apply Hst.
  unfold all_start in Hall. rewrite Forall_forall in Hall. exact (Hall _ (nth_error_In _ _ Hn)).
Qed.

Lemma finish_missed : forall p u t, missed (TDone (finish_auth p u t)) = missed (TRegistered u).
Proof.
  intros. unfold finish_auth. destruct u; cbn [missed negb]; [reflexivity|].
  destruct (p_auth p) as [z|]; [destruct (in_window z t)|]; reflexivity.
Qed.

(* only registerRandom changes the count of threads told "new", and only from 0 to 1; every later step of a thread
   (the second half of an unlocked registration included) leaves the key cached and the count alone *)
Lemma conc_step : forall keyfn p c ts i t st,
  conc_inv (keyfn (p_random p)) c ts -> nth_error ts i = Some st ->
  let (c', st') := tstep true keyfn p c st t in
  conc_inv (keyfn (p_random p)) c' (set_nth i st' ts).
Proof.
  intros keyfn p c ts i t st Hinv Hn.
  destruct st as [|u|u|o]; cbn [tstep].
  - unfold register.
    pose proof (misses_set_nth i TStart
      (TRegistered match lookup (keyfn (p_random p)) c with Some _ => true | None => false end) ts Hn) as M.
    right. rewrite lookup_store_same. split; [discriminate|].
    destruct Hinv as [[Hl Hall] | [Hl Hm]].
    + rewrite Hl in M |- *. cbn [missed negb] in M. rewrite (all_start_misses ts Hall) in M. lia.
    + destruct (lookup (keyfn (p_random p)) c); [|contradiction]. cbn [missed negb] in M. lia.
  - destruct (started_inv _ _ _ _ _ Hinv Hn) as [Hl Hm]; [discriminate|].
    pose proof (misses_set_nth i (TLooked u) (TRegistered u) ts Hn) as M.
    right. rewrite lookup_store_same. split; [discriminate|]. cbn [missed] in M. lia.
  - destruct (started_inv _ _ _ _ _ Hinv Hn) as [Hl Hm]; [discriminate|].
    pose proof (misses_set_nth i (TRegistered u) (TDone (finish_auth p u t)) ts Hn) as M.
    right. split; [exact Hl|]. rewrite finish_missed in M. lia.
  - destruct (started_inv _ _ _ _ _ Hinv Hn) as [Hl Hm]; [discriminate|].
    pose proof (misses_set_nth i (TDone o) (TDone o) ts Hn) as M. right. split; [exact Hl | lia].
Qed.

Lemma conc_run : forall keyfn p sched c ts,
  conc_inv (keyfn (p_random p)) c ts ->
  let (c', ts') := run_sched true keyfn p c ts sched in
  conc_inv (keyfn (p_random p)) c' ts'.
Proof.
  induction sched as [|[i t] sched IH]; intros c ts Hinv; cbn [run_sched]; [exact Hinv|].
  destruct (nth_error ts i) as [st|] eqn:Hn; [|now apply IH].
  pose proof (conc_step keyfn p c ts i t st Hinv Hn) as Hs.
  destruct (tstep true keyfn p c st t) as [c' st']. now apply IH.
Qed.

Lemma conc_init : forall k c n, lookup k c = None -> conc_inv k c (repeat TStart n).
Proof.
  intros k c n Hl. left. split; [exact Hl|]. apply Forall_forall. intros st Hin. now apply repeat_spec in Hin.
Qed.

(* a thread scheduled at least twice has finished *)
Definition stage (st : tstate) : nat :=
  match st with TStart => 0 | TLooked _ => 0 | TRegistered _ => 1 | TDone _ => 2 end.

Lemma nth_error_set_nth_same : forall {A} i (x : A) l y, nth_error l i = Some y -> nth_error (set_nth i x l) i = Some x.
Proof. induction i; intros x [|z l] y H; cbn in *; try discriminate; eauto. Qed.

Lemma nth_error_set_nth_other : forall {A} i j (x : A) l, i <> j -> nth_error (set_nth i x l) j = nth_error l j.
Proof.
  induction i; intros [|j] x [|z l] H; cbn; try reflexivity; try contradiction.
  apply IHi. congruence.
Qed.

Lemma stage_run : forall keyfn p sched c ts j st,
  nth_error ts j = Some st ->
  exists st', nth_error (snd (run_sched true keyfn p c ts sched)) j = Some st'
    /\ (Nat.min 2 (stage st + count_occ Nat.eq_dec (map fst sched) j) <= stage st')%nat.
Proof.
  induction sched as [|[i t] sched IH]; intros c ts j st Hj; cbn [run_sched map fst count_occ snd].
  - exists st. split; [exact Hj|]. lia.
  - destruct (nth_error ts i) as [sti|] eqn:Hi.
    + destruct (tstep true keyfn p c sti t) as [c' sti'] eqn:Et.
      destruct (Nat.eq_dec i j) as [->|Hne].
      * rewrite Hj in Hi. injection Hi as <-.
        destruct (IH c' (set_nth j sti' ts) j sti' (nth_error_set_nth_same _ _ _ _ Hj)) as (st' & Hn & Hp).
        exists st'. split; [exact Hn|].
        assert (stage sti' >= Nat.min 2 (S (stage st)))%nat.
        { destruct st; cbn [tstep] in Et.
          - destruct (register keyfn c (p_random p) t). injection Et as _ <-. cbn. lia.
          - injection Et as _ <-. cbn. lia.
          - injection Et as _ <-. cbn. lia.
          - injection Et as _ <-. cbn. lia. }
        lia.
      * destruct (IH c' (set_nth i sti' ts) j st) as (st' & Hn & Hp).
        { rewrite nth_error_set_nth_other by exact Hne. exact Hj. }
        exists st'. split; [exact Hn | exact Hp].
    + destruct (Nat.eq_dec i j) as [->|Hne]; [congruence|]. now apply IH.
Qed.

Lemma run_sched_length : forall atomic keyfn p sched c ts,
  length (snd (run_sched atomic keyfn p c ts sched)) = length ts.
Proof.
  induction sched as [|[i t] sched IH]; intros c ts; cbn [run_sched]; [reflexivity|].
  destruct (nth_error ts i) as [st|]; [|apply IH].
  destruct (tstep atomic keyfn p c st t) as [c1 st1]. rewrite IH. apply set_nth_length.
Qed.

Definition is_done (st : tstate) : Prop := exists o, st = TDone o.

Lemma done_count : forall ts, Forall is_done ts ->
  (length (filter (fun st => match st with TDone OReplay => true | _ => false end) ts) + misses ts = length ts)%nat.
Proof.
  unfold misses. induction 1 as [|st ts Hx _ IH]; [reflexivity|].
  destruct Hx as [o ->]. cbn [filter missed]. destruct o; cbn [length]; lia.
Qed.

Theorem concurrent_exactly_one :
  forall keyfn p n c sched,
  lookup (keyfn (p_random p)) c = None ->
  let (c', ts') := run_sched true keyfn p c (repeat TStart n) sched in
  (* at every moment at most one thread has been told "new" ... *)
  (misses ts' <= 1)%nat /\
  (* ... and once every thread has run to completion exactly one has, the others got ErrReplay *)
  ((forall i, (i < n)%nat -> (2 <= count_occ Nat.eq_dec (map fst sched) i)%nat) -> (1 <= n)%nat ->
     Forall is_done ts' /\ misses ts' = 1%nat /\
     length (filter (fun st => match st with TDone OReplay => true | _ => false end) ts') = (n - 1)%nat).
Proof.
  intros keyfn p n c sched Hl.
  pose proof (conc_run keyfn p sched c (repeat TStart n) (conc_init _ c n Hl)) as Hinv.
  pose proof (fun j st => stage_run keyfn p sched c (repeat TStart n) j st) as Hprog.
  destruct (run_sched true keyfn p c (repeat TStart n) sched) as [c' ts'] eqn:Er. cbn [snd] in Hprog.
  split.
  - destruct Hinv as [[_ Hall] | [_ Hm]]; [rewrite (all_start_misses _ Hall)|]; lia.
  - intros Hall Hn.
    pose proof (run_sched_length true keyfn p sched c (repeat TStart n)) as Hlen.
    rewrite Er, repeat_length in Hlen. cbn [snd] in Hlen.
    assert (Hdone : Forall is_done ts').
    { apply Forall_forall. intros st Hin. apply In_nth_error in Hin as [j Hj].
      assert (Hjn : (j < n)%nat) by (rewrite <- Hlen; apply nth_error_Some; congruence).
      destruct (Hprog j TStart) as (st' & Hn' & Hp).
      { rewrite nth_error_repeat by exact Hjn. reflexivity. }
      rewrite Hj in Hn'. injection Hn' as <-. specialize (Hall j Hjn). cbn [stage] in Hp.
      destruct st; cbn [stage] in Hp; try lia. now exists o. }
    assert (Hm : misses ts' = 1%nat).
    { destruct Hinv as [[_ Hs] | [_ Hm]]; [|exact Hm]. exfalso.
      destruct ts' as [|st ts']; [cbn in Hlen; lia|].
      unfold all_start in Hs. apply Forall_inv in Hs. apply Forall_inv in Hdone. destruct Hdone as [o Ho]. congruence. }
    split; [exact Hdone|]. split; [exact Hm|].
    pose proof (done_count ts' Hdone). lia.
Qed.

(* without the lock (lookup and store as two steps) two threads can both be told "new" *)
Lemma unlocked_two_misses :
  let p := pk 1000 in let t := 1000 * ns_per_s in
  snd (run_sched false mask255 p [] [TStart; TStart] [(0, t); (1, t); (0, t); (1, t); (0, t); (1, t)]%nat)
  = [TDone OAccept; TDone OAccept].
Proof. vm_compute. reflexivity. Qed.

(* the observations [serve] prints are a regrouping of the outcomes of the server's history *)
Lemma run_chunks_concat : forall rule keyfn chs c,
  concat (map fst (run_chunks rule keyfn c chs)) = snd (run rule keyfn c (concat chs)).
Proof.
  induction chs as [|ch chs IH]; intro c; cbn [run_chunks concat map]; [reflexivity|].
  rewrite run_app. destruct (run rule keyfn c ch) as [c' os]. cbn [concat map fst]. rewrite IH.
  now destruct (run rule keyfn c' (concat chs)).
Qed.

Lemma cleans_upto_spec : forall fuel next upto now,
  now < next -> upto < next + Z.of_nat fuel * clean_period ->
  let (cl, nx) := cleans_upto fuel next upto in
  ordered now cl = true /\ Z.max upto now < nx /\ last_time now cl <= Z.max upto now.
Proof.
  pose proof clean_period_pos as Hp.
  induction fuel as [|f IH]; intros next upto now Hn Hu; cbn [cleans_upto].
  - cbn [ordered last_time fold_left]. unfold last_time. cbn. lia.
  - destruct (next <=? upto) eqn:E.
    + specialize (IH (next + clean_period) upto next ltac:(lia) ltac:(lia)).
      destruct (cleans_upto f (next + clean_period) upto) as [l nx].
      destruct IH as (I1 & I2 & I3). unfold last_time in *. cbn [ordered ev_time fold_left].
      rewrite I1. split; [lia|]. lia.
    + unfold last_time. cbn. lia.
Qed.

Fixpoint sleeps_nonneg (ops : list op) : bool :=
  match ops with
  | [] => true
  | OpSleep d :: r => (0 <=? d) && sleeps_nonneg r
  | _ :: r => sleeps_nonneg r
  end.

Lemma ordered_repeat : forall p t n lb, lb <= t -> ordered lb (repeat (Present p t t) n) = true.
Proof. induction n; intros lb H; cbn [repeat ordered ev_time]; [reflexivity|]. rewrite IHn by lia. lia. Qed.

Lemma last_time_repeat : forall p t n lb, lb <= t -> last_time lb (repeat (Present p t t) n) <= t.
Proof. unfold last_time. induction n; intros lb H; cbn [repeat fold_left ev_time]; [lia|]. apply IHn. lia. Qed.

Lemma ordered_weaken : forall h lb lb', lb' <= lb -> ordered lb h = true -> ordered lb' h = true.
Proof. destruct h as [|e h]; intros lb lb' H Ho; cbn [ordered] in *; [reflexivity|]. lia. Qed.

(* every history the harness can drive is an ordered history: the theorems apply to it *)
Lemma chunks_ordered : forall ops now next,
  sleeps_nonneg ops = true -> now < next ->
  ordered now (concat (chunks now next ops)) = true.
Proof.
  pose proof clean_period_pos as Hp.
  induction ops as [|o ops IH]; intros now next Hs Hn; cbn [chunks concat]; [reflexivity|].
  destruct o as [d | p | p n]; cbn [sleeps_nonneg] in Hs.
  - apply andb_true_iff in Hs as [Hd Hs].
    pose proof (cleans_upto_spec (S (Z.to_nat (d / clean_period))) next (now + d) now Hn) as C.
    assert (now + d < next + Z.of_nat (S (Z.to_nat (d / clean_period))) * clean_period) as Hf.
    { rewrite Nat2Z.inj_succ, Z2Nat.id by (apply Z.div_pos; lia).
      pose proof (Z.mod_pos_bound d clean_period Hp). pose proof (Z.div_mod d clean_period ltac:(lia)). nia. }
    specialize (C Hf).
    destruct (cleans_upto (S (Z.to_nat (d / clean_period))) next (now + d)) as [cl nx].
    destruct C as (C1 & C2 & C3). cbn [concat].
    apply ordered_app. split; [exact C1|].
    apply ordered_weaken with (lb := now + d); [lia|]. apply IH; [exact Hs | lia].
  - cbn [concat app ordered ev_time]. rewrite (IH now next Hs Hn). lia.
  - cbn [concat]. apply ordered_app. split; [apply ordered_repeat; lia|].
    apply ordered_weaken with (lb := now); [apply last_time_repeat; lia | now apply IH].
Qed.

Lemma server_history_ordered : forall start ops,
  sleeps_nonneg ops = true -> ordered start (server_history start ops) = true.
Proof.
  intros. unfold server_history. apply chunks_ordered; [assumption|]. pose proof clean_period_pos. lia.
Qed.

(* in a harness-driven history the two clock reads of a presentation coincide *)
Lemma server_history_same_read : forall ops now next p t1 t2,
  In (Present p t1 t2) (concat (chunks now next ops)) -> t1 = t2.
Proof.
  induction ops as [|o ops IH]; intros now next p t1 t2 Hin; cbn [chunks concat] in Hin; [contradiction|].
  destruct o as [d | q | q n].
  - destruct (cleans_upto (S (Z.to_nat (d / clean_period))) next (now + d)) as [cl nx] eqn:E.
    cbn [concat] in Hin. apply in_app_or in Hin as [Hin|Hin]; [|eauto].
    exfalso. clear - E Hin. revert next cl nx E Hin. generalize (S (Z.to_nat (d / clean_period))) as f.
    induction f as [|f IHf]; intros next cl nx E Hin; cbn [cleans_upto] in E.
    + injection E as <- _. contradiction.
    + destruct (next <=? now + d).
      * destruct (cleans_upto f (next + clean_period) (now + d)) as [l n2] eqn:E2.
        injection E as <- _. destruct Hin as [Hin|Hin]; [discriminate|]. eapply IHf; eauto.
      * injection E as <- _. contradiction.
  - cbn [concat app] in Hin. destruct Hin as [Hin|Hin]; [injection Hin; congruence | eauto].
  - cbn [concat] in Hin. apply in_app_or in Hin as [Hin|Hin]; [|eauto].
    apply repeat_spec in Hin. injection Hin; congruence.
Qed.

(* a first packet on the wire: the 32 bytes that carry the ephemeral public value and the
   64-byte sealed identity block (session id ++ key share) *)
Record wire := mkW { w_parses : bool; w_random : list N; w_block : list N }.
Inductive wevent := WPresent (w : wire) (t1 t2 : Z) | WClean (t : Z).

Section Sealed.
  (* [opens r b] = Some ts when block b opens under the key X25519(server key, r) with nonce
     r[0..11] and carries timestamp ts.  Not modelled: an abstract function. *)
  Variable opens : list N -> list N -> option Z.
  (* one sealed block opens under at most one ephemeral value up to X25519's input masking *)
  Hypothesis sealed_block_binds : forall r1 r2 b ts1 ts2,
    opens r1 b = Some ts1 -> opens r2 b = Some ts2 -> mask255 r1 = mask255 r2 /\ ts1 = ts2.

  Definition abstract (w : wire) : packet := mkP (w_parses w) (w_random w) (opens (w_random w) (w_block w)).
  Definition abs_event (e : wevent) : event :=
    match e with WPresent w t1 t2 => Present (abstract w) t1 t2 | WClean t => Clean t end.

  Theorem at_most_once :
    forall lb0 h1 h2 h3 w t1 t1' w' t2 t2',
    let h := map abs_event (h1 ++ WPresent w t1 t1' :: h2 ++ WPresent w' t2 t2' :: h3) in
    ordered lb0 h = true ->
    t1 / ns_per_s = t1' / ns_per_s ->
    w_block w' = w_block w ->
    nth_error (outcomes rule_fixed mask255 h) (length h1) = Some (Some OAccept) ->
    nth_error (outcomes rule_fixed mask255 h) (length h1 + 1 + length h2) <> Some (Some OAccept).
  Proof.
    intros lb0 h1 h2 h3 w t1 t1' w' t2 t2' h Hord Hsec Hblk Hacc1 Hacc2.
    subst h. rewrite map_app in *. cbn [map abs_event] in *. rewrite map_app in *. cbn [map abs_event] in *.
    rewrite <- (map_length abs_event h1) in Hacc1, Hacc2.
    rewrite <- (map_length abs_event h2) in Hacc2.
    pose proof (accept_inv _ _ _ _ _ _ _ Hacc1) as (_ & ts & Ha & _).
    pose proof Hacc2 as Hacc2'. rewrite second_position in Hacc2'.
    apply accept_inv in Hacc2' as (_ & ts' & Ha' & _).
    cbn [abstract p_auth] in Ha, Ha'. rewrite Hblk in Ha'.
    destruct (sealed_block_binds _ _ _ _ _ Ha Ha') as [Hk Hts]. subst ts'.
    refine (cache_at_most_one mask255 lb0 _ _ _ _ t1 t1' _ t2 t2' Hord Hsec _ _ Hacc1 Hacc2).
    - cbn [abstract p_random]. now symmetry.
    - cbn [abstract p_auth]. rewrite Hblk. congruence.
  Qed.
End Sealed.

(* the hypothesis is satisfiable: a toy scheme whose block spells out the (masked) ephemeral value
   and the timestamp (offset so that it is a byte) *)
Definition toy_opens (r b : list N) : option Z :=
  match b with
  | tsb :: k => if bytes_eqb k (mask255 r) then Some (Z.of_N tsb) else None
  | [] => None
  end.

Lemma toy_binds : forall r1 r2 b ts1 ts2,
  toy_opens r1 b = Some ts1 -> toy_opens r2 b = Some ts2 -> mask255 r1 = mask255 r2 /\ ts1 = ts2.
Proof.
  intros r1 r2 [|tsb k] ts1 ts2 H1 H2; cbn [toy_opens] in *; [discriminate|].
  destruct (bytes_eqb k (mask255 r1)) eqn:E1; [|discriminate].
  destruct (bytes_eqb k (mask255 r2)) eqn:E2; [|discriminate].
  apply bytes_eqb_eq in E1, E2. split; congruence.
Qed.

Example toy_accepts_once :
  let w := mkW true rnd0 (100%N :: mask255 rnd0) in
  let w' := mkW true (flip255 rnd0) (100%N :: mask255 rnd0) in
  outcomes rule_fixed mask255 (map (abs_event toy_opens)
     [WPresent w (100 * ns_per_s) (100 * ns_per_s); WClean (101 * ns_per_s); WPresent w' (102 * ns_per_s) (102 * ns_per_s)])
  = [Some OAccept; None; Some OReplay].
Proof. vm_compute. reflexivity. Qed.
