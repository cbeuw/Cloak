(* "A healthy session keeps working" (C01, last sentence): along label sequences without
   faults, session closes and timer ticks, with at least one connection and in multiplexed mode,
   no session is ever closed, no connection is ever closed, every send succeeds and every Write on
   an open stream is accepted whole. *)
From Coq Require Import NArith ZArith List Bool Lia.
From Coq Require Import ZifyN ZifyBool.
From Cloak Require Import Model.Reorder Model.Mux Proofs.MuxBase.
Import ListNotations.
Local Open Scope N_scope.

Section Calm.
Variable k : nat.

Definition valid_picks (ch : list N) : Prop := Forall (fun c => (N.to_nat c < k)%nat) ch.

Definition calm_label (l : label) : Prop :=
  match l with
  | LOpen _ | LWrite _ _ _ | LRead _ _ _ | LAccept _ | LCloseStream _ _ | LDeliver _ _ => True
  | LCloseSession _ | LFail _ | LTick _ | LBreak _ | LNotice _ _ => False
  end.

(* the pool has a connection to pick and writes make progress (the unit is at least 1); multiplexed; and no
   stream's closing flag is 2, so that no frame a stream emits is taken for a session-closing notice *)
Definition pool_ok (se : session) : Prop := se_pool se <> [] /\ 1 <= se_unit se.
Definition sess_healthy (se : session) : Prop :=
  se_closed se = false /\ se_broken se = false /\ se_singleplex se = false /\ pool_ok se /\
  (forall id st, lookup id (se_objs se) = Some st -> st_wcl st <= 1).

Definition conn_healthy (cn : conn) : Prop :=
  c_clA cn = false /\ c_clB cn = false /\ c_failed cn = false /\
  (forall fr, In fr (c_toA cn) -> w_cl fr <> 2) /\ (forall fr, In fr (c_toB cn) -> w_cl fr <> 2).

Definition Healthy (y : sys) : Prop :=
  (1 <= k)%nat /\ length (sy_conns y) = k /\
  (forall n cn, nthN n (sy_conns y) = Some cn -> conn_healthy cn) /\
  sess_healthy (sess y SA) /\ sess_healthy (sess y SB).

Lemma Healthy_sess y x : Healthy y -> sess_healthy (sess y x).
Proof. intros (_ & _ & _ & Ha & Hb). destruct x; assumption. Qed.

Lemma Healthy_set_sess y x se : Healthy y -> sess_healthy se -> Healthy (set_sess y x se).
Proof.
  intros (Hk & Hl & Hc & Ha & Hb) Hse. unfold Healthy. rewrite conns_set_sess.
  split; [exact Hk|split; [exact Hl|split; [exact Hc|]]]. destruct x; cbn; auto.
Qed.
Lemma Healthy_set_pend y p : Healthy y -> Healthy (set_pend y p).
Proof. exact (fun H => H). Qed.

(* one stream object is replaced or added, with a closing flag of at most 1; nothing else that Healthy reads changes *)
Lemma Healthy_put y x se' id st' :
  Healthy y -> se_closed se' = se_closed (sess y x) -> se_broken se' = se_broken (sess y x) ->
  se_singleplex se' = se_singleplex (sess y x) -> se_pool se' = se_pool (sess y x) -> se_unit se' = se_unit (sess y x) ->
  se_objs se' = update id st' (se_objs (sess y x)) -> st_wcl st' <= 1 -> Healthy (set_sess y x se').
Proof.
  intros Hh E1 E2 E3 E4 E5 E6 Hw. apply Healthy_set_sess; [exact Hh|].
  destruct (Healthy_sess y x Hh) as (H1 & H2 & H3 & H4 & H5). unfold sess_healthy, pool_ok. rewrite E1, E2, E3, E4, E5, E6.
  repeat split; try assumption; try apply H4.
  intros i st Hl. rewrite lookup_update in Hl. destruct (i =? id); [injection Hl as <-; exact Hw|eauto].
Qed.

Lemma conn_healthy_up cn x : conn_healthy cn -> conn_closed_end cn x || c_failed cn = false.
Proof. intros (C1 & C2 & C3 & _). destruct x; cbn; rewrite ?C1, ?C2, C3; reflexivity. Qed.
Lemma conn_healthy_q cn x fr : conn_healthy cn -> In fr (conn_q cn x) -> w_cl fr <> 2.
Proof. intros (_ & _ & _ & C4 & C5). destruct x; [apply C4|apply C5]. Qed.
Lemma conn_healthy_set_q cn x q :
  conn_healthy cn -> (forall fr, In fr q -> w_cl fr <> 2) -> conn_healthy (conn_set_q cn x q).
Proof. intros (C1 & C2 & C3 & C4 & C5) Hq. destruct x, cn; cbn in *; repeat split; assumption. Qed.

Lemma Healthy_set_conn y n cn cn' :
  Healthy y -> nthN n (sy_conns y) = Some cn -> conn_healthy cn' ->
  Healthy (set_conns y (setN n cn' (sy_conns y))).
Proof.
  intros (Hk & Hl & Hc & Ha & Hb) En Hcn. unfold Healthy. cbn [sy_conns set_conns]. rewrite length_setN, !sess_set_conns.
  split; [exact Hk|split; [exact Hl|split; [|split; assumption]]].
  intros m c Hm. destruct (Nat.eq_dec m n) as [->|Hne].
  - rewrite (nthN_setN_eq _ _ _ _ En) in Hm. injection Hm as <-. exact Hcn.
  - rewrite nthN_setN_neq in Hm by exact Hne. eauto.
Qed.

Lemma sb_send_H y x fr p :
  Healthy y -> (N.to_nat p < k)%nat -> w_cl fr <> 2 ->
  exists y', sb_send y x fr p = (y', [EFrame x p fr], 0) /\ Healthy y'.
Proof.
  intros Hh Hp Hcl. pose proof Hh as (Hk & Hl & Hc & Ha & Hb).
  destruct (Healthy_sess y x Hh) as (H1 & H2 & H3 & H4 & H5).
  unfold sb_send. rewrite H2. destruct (se_pool (sess y x)) as [|c0 t] eqn:Ep; [exfalso; apply (proj1 H4); exact Ep|].
  destruct (nthN_lt_Some (N.to_nat p) (sy_conns y)) as (cn & En); [lia|].
  rewrite En, (conn_healthy_up cn x (Hc _ _ En)). eexists. split; [reflexivity|].
  apply (Healthy_set_conn y _ cn); [exact Hh|exact En|]. apply conn_healthy_set_q; [exact (Hc _ _ En)|].
  intros f Hf. apply in_app_or in Hf as [Hf|[<-|[]]]; [exact (conn_healthy_q cn _ f (Hc _ _ En) Hf)|exact Hcl].
Qed.

Lemma hd_pick_valid ch : valid_picks ch -> (1 <= k)%nat ->
  (N.to_nat (fst (hd_pick ch)) < k)%nat /\ valid_picks (snd (hd_pick ch)).
Proof.
  intros Hv Hk. destruct ch as [|c t]; cbn; [split; [lia|constructor]|]. inversion Hv; subst. auto.
Qed.

Lemma stream_emit_H y x sid pay ch y' ch' evs ok :
  stream_emit y x sid pay ch = (y', ch', evs, ok) -> Healthy y -> valid_picks ch ->
  Healthy y' /\ valid_picks ch' /\ (lookup sid (se_objs (sess y x)) <> None -> ok = true).
Proof.
  unfold stream_emit. intros H Hh Hv.
  destruct (lookup sid (se_objs (sess y x))) as [st|] eqn:El.
  2:{ injection H as <- <- <- <-. split; [exact Hh|split; [exact Hv|intros Hx; exfalso; apply Hx; reflexivity]]. }
  cbv zeta in H.
  destruct (Healthy_sess y x Hh) as (_ & _ & _ & _ & H5). specialize (H5 _ _ El).
  set (y1 := set_sess y x _) in H.
  assert (Hh1 : Healthy y1) by (eapply Healthy_put; [exact Hh|reflexivity..|exact H5]).
  pose proof Hh as (Hk & _).
  destruct (hd_pick_valid ch Hv Hk) as [Hp Hv'].
  destruct (hd_pick ch) as [c ch0]. cbn [fst snd] in *.
  assert (Hcl : w_cl (mkW sid (st_seq st) (st_wcl st) pay) <> 2) by (cbn; lia).
  destruct (sb_send_H y1 x _ c Hh1 Hp Hcl) as (y2 & Es & Hh2).
  rewrite Es in H. cbn in H. injection H as <- <- <- <-. auto.
Qed.

Lemma close_stream_H y x sid active ch y' ch' evs rc :
  close_stream y x sid active ch = (y', ch', evs, rc) -> Healthy y -> valid_picks ch -> Healthy y'.
Proof.
  intros H Hh Hv.
  destruct (close_stream_cases _ _ _ _ _ _ _ _ _ H) as [(-> & _)|(st & y2 & ch2 & evs2 & ok & El & Ecl & Ee & Ht)];
    [exact Hh|].
  cbv zeta in Ee, Ht. destruct (Healthy_sess y x Hh) as (_ & _ & _ & _ & H5). specialize (H5 _ _ El).
  set (y1 := set_sess y x _) in Ee.
  assert (Hh1 : Healthy y1) by (eapply Healthy_put; [exact Hh|reflexivity..|cbn; destruct active; [lia|exact H5]]).
  assert (He : Healthy y2 /\ ok = true).
  { destruct active; [|injection Ee as <- _ _ <-; auto].
    destruct (stream_emit_H _ _ _ _ _ _ _ _ _ Ee Hh1 Hv) as (Ha & _ & Hc). split; [exact Ha|apply Hc].
    unfold y1. rewrite sess_set_same. cbn [se_objs upd_objs]. rewrite lookup_update_eq. discriminate. }
  destruct He as (Hh2 & ->). pose proof (Healthy_sess y2 x Hh2) as K. pose proof K as (_ & _ & K3 & _).
  destruct Ht as [(Hx & _)|(_ & [[(ts & ->) _]|(ch4 & evs4 & rc4 & Hsp & _)])]; [discriminate| |congruence].
  (* the table entry, the counter and the timers are nothing Healthy reads *)
  apply Healthy_set_sess; [apply Healthy_set_sess; [exact Hh2|]|]; exact K.
Qed.

Lemma rb_store_H y x sid st rb' :
  Healthy y -> lookup sid (se_objs (sess y x)) = Some st ->
  Healthy (set_sess y x (upd_objs (sess y x) (update sid (st_set_rb st rb') (se_objs (sess y x))))).
Proof.
  intros Hh El. destruct (Healthy_sess y x Hh) as (_ & _ & _ & _ & H5).
  eapply Healthy_put; [exact Hh|reflexivity..|exact (H5 _ _ El)].
Qed.

Lemma add_stream_H y x id q n : Healthy y -> Healthy (set_sess y x (add_stream (sess y x) id q n)).
Proof. intros Hh. eapply Healthy_put; [exact Hh|reflexivity..|cbn; lia]. Qed.

Lemma deliver_H y x fr ch y' ch' evs :
  deliver y x fr ch = (y', ch', evs) -> Healthy y -> valid_picks ch -> Healthy y'.
Proof.
  unfold deliver. intros H Hh Hv.
  destruct (lookup (w_sid fr) (se_objs (sess y x))) as [st|] eqn:El; [|injection H as <- _ _; exact Hh].
  destruct (rb_write (st_rb st) _) as [[rb' tbc] er]. cbv zeta in H.
  pose proof (rb_store_H y x (w_sid fr) st rb' Hh El) as Hh1.
  destruct tbc; [|injection H as <- _ _; exact Hh1].
  destruct (close_stream _ x (w_sid fr) false ch) as [[[y2 ch2] evs2] rc] eqn:Ecs. injection H as <- _ _.
  eapply close_stream_H; eauto.
Qed.

Lemma recv_frame_H y x fr ch y' ch' evs :
  recv_frame y x fr ch = (y', ch', evs) -> Healthy y -> valid_picks ch -> w_cl fr <> 2 -> Healthy y'.
Proof.
  rewrite recv_frame_eq. intros H Hh Hv Hcl.
  replace (w_cl fr =? 2) with false in H by lia.
  destruct (se_closed (sess y x)); [injection H as <- _ _; exact Hh|].
  destruct (lookup (w_sid fr) (se_tab (sess y x))) as [[|]|].
  - eapply deliver_H; eauto.
  - injection H as <- _ _. exact Hh.
  - eapply deliver_H; [exact H| |exact Hv]. now apply add_stream_H.
Qed.

Lemma write_loop_H fuel : forall y x sid data n ch y' ch' evs n' rc,
  write_loop fuel y x sid data n ch = (y', ch', evs, n', rc) -> Healthy y -> valid_picks ch ->
  Healthy y' /\
  (lookup sid (se_objs (sess y x)) <> None -> (length data < fuel)%nat ->
   rc = R_OK /\ n' = n + N.of_nat (length data)).
Proof.
  induction fuel as [|fuel IH]; intros y x sid data n ch y' ch' evs n' rc H Hh Hv; cbn in H.
  - injection H as <- <- <- <- <-. split; [exact Hh|]. intros _ Hl. lia.
  - destruct data as [|b data'].
    { injection H as <- <- <- <- <-. split; [exact Hh|]. intros _ _. split; [reflexivity|cbn; lia]. }
    set (data := b :: data') in *. set (u := N.to_nat (se_unit (sess y x))) in *.
    destruct (stream_emit y x sid (firstn u data) ch) as [[[y1 ch1] evs1] ok] eqn:Ee.
    destruct (stream_emit_H _ _ _ _ _ _ _ _ _ Ee Hh Hv) as (Hh1 & Hv1 & Hok).
    destruct ok.
    + destruct (write_loop fuel y1 x sid _ _ ch1) as [[[[y2 ch2] evs2] n2] rc2] eqn:Ew. injection H as <- <- <- <- <-.
      destruct (IH _ _ _ _ _ _ _ _ _ _ _ Ew Hh1 Hv1) as (Hh2 & Hres).
      split; [exact Hh2|]. intros Hex Hlen.
      assert (Hu : 1 <= se_unit (sess y x)) by (destruct (Healthy_sess y x Hh) as (_ & _ & _ & [_ Hun] & _); exact Hun).
      (* the frame went out: the stream is still there *)
      destruct (stream_emit_sess _ _ _ _ _ _ _ _ _ Ee) as [_ Hs].
      destruct (lookup sid (se_objs (sess y x))) as [st|]; [|congruence].
      assert (Hlen' : (length (skipn u data) < fuel)%nat).
      { rewrite skipn_length. unfold data in *. cbn [length] in *. lia. }
      destruct Hres as [-> ->];
        [rewrite Hs; cbn [se_objs upd_objs]; rewrite lookup_update_eq; discriminate|exact Hlen'|].
      split; [reflexivity|]. rewrite firstn_length, skipn_length. lia.
    + injection H as <- <- <- <- <-. split; [exact Hh1|]. intros Hex _. specialize (Hok Hex). discriminate.
Qed.

Lemma try_read_H y x sid n y' rc d : try_read y x sid n = Some (y', rc, d) -> Healthy y -> Healthy y'.
Proof.
  unfold try_read. intros H Hh. destruct (lookup sid (se_objs (sess y x))) as [st|] eqn:El; [|injection H as <- _ _; exact Hh].
  destruct n as [|n]; [injection H as <- _ _; exact Hh|].
  destruct (rb_read (st_rb st) (S n)) as [rb' [dd| |]]; try discriminate; injection H as <- _ _; [|exact Hh].
  apply rb_store_H; assumption.
Qed.
Lemma try_accept_H y x y' rc id : try_accept y x = Some (y', rc, id) -> Healthy y -> Healthy y'.
Proof.
  unfold try_accept. intros H Hh. destruct (se_acceptq (sess y x)) as [|i q].
  - destruct (se_closed (sess y x)); [injection H as <- _ _; exact Hh|discriminate].
  - injection H as <- _ _. apply Healthy_set_sess; [exact Hh|exact (Healthy_sess y x Hh)].
Qed.
Lemma resolve_H ps y y' ps' evs : resolve ps y = (y', ps', evs) -> Healthy y -> Healthy y'.
Proof.
  apply (resolve_ind (fun a _ b => Healthy a -> Healthy b));
    [auto|auto|intros; eapply try_read_H; eauto|intros; eapply try_accept_H; eauto].
Qed.

Lemma open_stream_H y x y' evs : open_stream y x = (y', evs) -> Healthy y -> Healthy y'.
Proof.
  unfold open_stream. intros H Hh. destruct (Healthy_sess y x Hh) as (H1 & H2 & H3 & H4 & H5).
  rewrite H1, H3 in H. cbn [andb] in H. injection H as <- _.
  eapply Healthy_put; [exact Hh|reflexivity..|cbn; lia].
Qed.

Lemma stream_write_H y x sid data ch y' evs :
  stream_write y x sid data ch = (y', evs) -> Healthy y -> valid_picks ch ->
  Healthy y' /\
  (forall st, lookup sid (se_objs (sess y x)) = Some st -> st_closed st = false ->
     exists evs0, evs = evs0 ++ [ERet R_OK (N.of_nat (length data)) []]).
Proof.
  unfold stream_write. intros H Hh Hv.
  destruct (lookup sid (se_objs (sess y x))) as [st|] eqn:El; [|injection H as <- <-; split; [exact Hh|discriminate]].
  destruct (st_closed st) eqn:Ec; [injection H as <- <-; split; [exact Hh|intros st0 E; injection E as <-; congruence]|].
  destruct (write_loop (S (length data)) y x sid data 0 ch) as [[[[y1 ch1] evs1] n] rc] eqn:Ew.
  injection H as <- <-.
  destruct (write_loop_H _ _ _ _ _ _ _ _ _ _ _ _ Ew Hh Hv) as (Hh1 & Hres).
  split; [exact Hh1|]. intros st0 _ _.
  destruct Hres as [-> ->]; [rewrite El; discriminate|lia|]. eexists. reflexivity.
Qed.

Lemma deliver_pop_H y c cn x fr q :
  Healthy y -> nthN (N.to_nat c) (sy_conns y) = Some cn -> conn_q cn x = fr :: q ->
  Healthy (set_conns y (setN (N.to_nat c) (conn_set_q cn x q) (sy_conns y))) /\ w_cl fr <> 2.
Proof.
  intros Hh En Eq. pose proof Hh as (_ & _ & Hc & _). specialize (Hc _ _ En).
  split; [|apply (conn_healthy_q cn x); [exact Hc|rewrite Eq; now left]].
  apply (Healthy_set_conn y _ cn); [exact Hh|exact En|]. apply conn_healthy_set_q; [exact Hc|].
  intros f Hf. apply (conn_healthy_q cn x); [exact Hc|rewrite Eq; now right].
Qed.

Lemma step_core_H y l ch y' evs :
  step_core y l ch = (y', evs) -> calm_label l -> Healthy y -> valid_picks ch -> Healthy y'.
Proof.
  intros H Hc Hh Hv. destruct l as [x|x sid data|x sid n|x|x sid|x|x c|c|d|c|x c]; try contradiction.
  - rewrite step_core_open in H. eapply open_stream_H; eauto.
  - rewrite step_core_write in H. eapply stream_write_H; eauto.
  - rewrite step_core_read in H. destruct (has_pending_read _ _ _); [injection H as <- _; exact Hh|].
    destruct (try_read y x sid n) as [[[y1 rc] dd]|] eqn:Et; injection H as <- _; [eapply try_read_H; eauto|exact Hh].
  - rewrite step_core_accept in H. destruct (se_closed _); [injection H as <- _; exact Hh|].
    destruct (try_accept y x) as [[[y1 rc] id]|] eqn:Et; [injection H as <- _; eapply try_accept_H; eauto|].
    destruct (has_pending_accept _ _); injection H as <- _; exact Hh.
  - rewrite step_core_close_stream in H. destruct (close_stream y x sid true ch) as [[[y1 ch1] evs1] rc] eqn:Ec.
    injection H as <- _. eapply close_stream_H; eauto.
  - rewrite step_core_deliver in H. destruct (nthN (N.to_nat c) (sy_conns y)) as [cn|] eqn:En; [|injection H as <- _; exact Hh].
    destruct (_ || _); [injection H as <- _; exact Hh|].
    destruct (conn_q cn x) as [|fr q] eqn:Eq.
    + pose proof Hh as (_ & _ & Hcs & _). pose proof (conn_healthy_up cn (other x) (Hcs _ _ En)) as Hoe.
      apply orb_false_elim in Hoe as [Hoe _]. rewrite Hoe in H. injection H as <- _; exact Hh.
    + destruct (deliver_pop_H y c cn x fr q Hh En Eq) as [Hh1 Hcl].
      destruct (recv_frame _ x fr ch) as [[y2 ch2] evs2] eqn:Er. injection H as <- _.
      eapply recv_frame_H; eauto.
Qed.

Lemma step_H y l ch y' evs :
  step y l ch = (y', evs) -> calm_label l -> Healthy y -> valid_picks ch -> Healthy y'.
Proof.
  unfold step. intros H Hc Hh Hv. destruct (step_core y l ch) as [y1 evs1] eqn:Es.
  destruct (resolve (sy_pend y1) y1) as [[y2 ps] evs2] eqn:Er. injection H as <- _.
  apply Healthy_set_pend. eapply resolve_H; [exact Er|]. eapply step_core_H; eauto.
Qed.

Definition calm_run (ls : list (label * list N)) : Prop :=
  Forall (fun lc => calm_label (fst lc) /\ valid_picks (snd lc)) ls.

Lemma run_H ls : forall y y' outs, run y ls = (y', outs) -> calm_run ls -> Healthy y -> Healthy y'.
Proof.
  induction ls as [|[l ch] t IH]; intros y y' outs H Hc Hh; cbn in H; [injection H as <- _; exact Hh|].
  destruct (step y l ch) as [y1 o] eqn:Es. destruct (run y1 t) as [y2 os] eqn:Er. injection H as <- _.
  inversion Hc as [|? ? [Hl Hv] Ht]; subst. cbn in Hl, Hv.
  eapply IH; [exact Er|exact Ht|]. eapply step_H; eauto.
Qed.

Lemma init_H singleplex unit toA toB :
  (1 <= k)%nat -> 1 <= unit -> singleplex = false -> Healthy (init k singleplex unit toA toB).
Proof.
  intros Hk Hu ->. unfold Healthy, init. cbn [sy_conns sess sy_a sy_b].
  split; [exact Hk|split; [apply repeat_length|split]].
  - intros n cn Hn. assert (Hin : In cn (repeat (mkC [] [] false false false) k)).
    { clear - Hn. revert n Hn. generalize (repeat (mkC [] [] false false false) k). intros l.
      induction l as [|a t IH]; intros [|n] Hn; cbn in Hn; try discriminate; [injection Hn as <-; now left|right; eauto]. }
    apply repeat_spec in Hin. subst cn. repeat split; intros f [].
  - assert (Hs : forall to, sess_healthy (mk_session k false unit to)).
    { intros to. unfold sess_healthy, pool_ok, mk_session. cbn. repeat split; try discriminate; try exact Hu.
      destruct k; [lia|cbn; discriminate]. }
    split; apply Hs.
Qed.
End Calm.

Definition all_up (y : sys) : Prop :=
  (forall x, se_closed (sess y x) = false /\ se_broken (sess y x) = false) /\
  (forall n cn, nthN n (sy_conns y) = Some cn -> c_clA cn = false /\ c_clB cn = false /\ c_failed cn = false).

Lemma Healthy_all_up k y : Healthy k y -> all_up y.
Proof.
  intros Hh. split.
  - intros x. destruct (Healthy_sess k y x Hh) as (H1 & H2 & _). auto.
  - intros n cn Hn. destruct Hh as (_ & _ & Hc & _). destruct (Hc _ _ Hn) as (C1 & C2 & C3 & _). auto.
Qed.

(* while no connection is failed, no side closes the session, and no timer tick is taken, a
   multiplexed session over k >= 1 connections stays up after any sequence of opens, writes,
   reads, accepts, stream closes and deliveries, in any order and with any connection picks *)
Theorem healthy_session_stays_up k unit toA toB ls y outs :
  (1 <= k)%nat -> 1 <= unit -> calm_run k ls -> run (init k false unit toA toB) ls = (y, outs) -> all_up y.
Proof.
  intros Hk Hu Hc Hr. eapply Healthy_all_up, run_H; [exact Hr|exact Hc|]. now apply init_H.
Qed.

(* on a healthy system every Write to a stream that is open at the writer is accepted whole *)
Lemma healthy_write_accepted k y x sid data ch st y' evs :
  Healthy k y -> valid_picks k ch -> lookup sid (se_objs (sess y x)) = Some st -> st_closed st = false ->
  step y (LWrite x sid data) ch = (y', evs) ->
  exists e0 e1, evs = e0 ++ ERet R_OK (N.of_nat (length data)) [] :: e1.
Proof.
  intros Hh Hv El Ecl Hs.
  unfold step in Hs. rewrite step_core_write in Hs.
  destruct (stream_write y x sid data ch) as [y1 evs1] eqn:Ew.
  destruct (resolve (sy_pend y1) y1) as [[y2 ps] evs2]. injection Hs as _ <-.
  destruct (stream_write_H k _ _ _ _ _ _ _ Ew Hh Hv) as (_ & Hres).
  destruct (Hres st El Ecl) as (e0 & ->).
  exists e0, evs2. now rewrite <- app_assoc.
Qed.

Example stays_up_nonvacuous :
  calm_run 2 [(LOpen SA, []); (LWrite SA 1 [7; 8; 9], [0]); (LDeliver SB 0, []); (LRead SB 1 3, [])].
Proof. repeat constructor. Qed.
