(* Proofs about Model/Copy.v (common.Copy and the relay pipeline built from it). *)
From Coq Require Import NArith ZArith List Bool Lia.
From Cloak Require Import Model.Copy.
Import ListNotations.
Local Open Scope Z_scope.

Lemma writes_of_app a b : writes_of (a ++ b) = writes_of a ++ writes_of b.
Proof. induction a as [|e a IH]; cbn [app writes_of]; [reflexivity|]. destruct e; rewrite ?IH; reflexivity. Qed.
Lemma nreads_app a b : nreads (a ++ b) = (nreads a + nreads b)%nat.
Proof. induction a as [|e a IH]; cbn [app nreads]; [reflexivity|]. destruct e; rewrite ?IH; reflexivity. Qed.

Definition rnil (r : rd) : bool := match snd r with RNil => true | _ => false end.
Definition zlen (l : list N) : Z := Z.of_nat (length l).

(* the calls of the iterations that consumed the reads [l]: a Read each, followed by a Write of what
   it returned unless that was empty *)
Definition rounds (l : list rd) : list cev :=
  flat_map (fun r => ERead :: match fst r with [] => [] | d => [EWrite d] end) l.

Lemma rounds_app a b : rounds (a ++ b) = rounds a ++ rounds b.
Proof. apply flat_map_app. Qed.

Lemma writes_of_rounds l : concat (writes_of (rounds l)) = concat (map fst l).
Proof. unfold rounds. induction l as [|[[|b d] er] l IH]; cbn [flat_map fst app writes_of map concat]; now rewrite ?IH. Qed.

(* which last read (d, er) each error of Copy can follow *)
Definition stops_with (e : cerr) (d : list N) (er : rerr) : Prop :=
  match e with CNil => er = REOF | CWrite | CShortWrite => d <> [] | _ => True end.

(* The loop invariant, as one statement about the result of copy_loop started anywhere.  The script
   runs out only with a nil error.  Otherwise the reads consumed are pre ++ [(d, er)], all of pre
   without error; each was followed by one Write of exactly what it returned, if anything, and
   nothing else was written; the error is nil only after an EOF, and a write error only after a
   Write. *)
Definition loop_spec (rs : list rd) (acc : list cev) (o : cout) : Prop :=
  if co_fuel o then co_err o = CNil else
  exists pre d er,
    rs = pre ++ (d, er) :: co_reads_left o /\ forallb rnil pre = true /\
    co_evs o = acc ++ rounds (pre ++ [(d, er)]) /\ stops_with (co_err o) d er.

Lemma loop_spec_stop d er rs ws acc wr e : stops_with e d er ->
  loop_spec ((d, er) :: rs) acc (mkCo wr e (acc ++ rounds [(d, er)]) rs ws false).
Proof. intros H. exists [], d, er. repeat split. exact H. Qed.

Lemma loop_spec_pass d rs acc o :
  loop_spec rs (acc ++ rounds [(d, RNil)]) o -> loop_spec ((d, RNil) :: rs) acc o.
Proof.
  unfold loop_spec. destruct (co_fuel o); [auto|]. intros (pre & d' & er & E & Hn & Hev & He).
  exists ((d, RNil) :: pre), d', er. repeat split; [now rewrite E|exact Hn| |exact He].
  rewrite Hev, <- app_assoc. f_equal. symmetry. apply (rounds_app [_]).
Qed.

Lemma copy_loop_spec rs : forall ws written acc, loop_spec rs acc (copy_loop rs ws written acc).
Proof.
  induction rs as [|[d er] rs IH]; intros ws written acc; cbn [copy_loop]; [reflexivity|].
  destruct d as [|b d].
  - destruct er; [apply loop_spec_pass, IH|now apply loop_spec_stop..].
  - destruct ws as [|w ws]; [reflexivity|]. rewrite <- app_assoc.
    destruct (w_err w); [now apply loop_spec_stop|]. destruct (negb _); [now apply loop_spec_stop|].
    destruct er; [apply loop_spec_pass, IH|now apply loop_spec_stop..].
Qed.

(* what Copy hands to dst.Write is, byte for byte and in order, what the consumed Read calls of src
   returned - for EVERY script of read results and write results *)
Lemma copy_forwards_reads : forall rs ws dn,
  let o := copy KPlain rs ws dn in
  co_fuel o = false ->
  exists pre, rs = pre ++ co_reads_left o /\ concat (writes_of (co_evs o)) = concat (map fst pre).
Proof.
  intros rs ws dn o Hf. subst o. cbn [copy co_fuel co_reads_left co_evs] in *.
  pose proof (copy_loop_spec rs ws 0 []) as H. unfold loop_spec in H. rewrite Hf in H.
  destruct H as (pre & d & er & E & _ & Hev & _). exists (pre ++ [(d, er)]).
  split; [now rewrite <- app_assoc|].
  rewrite Hev, writes_of_app, concat_app. cbn [writes_of concat]. rewrite app_nil_r. apply writes_of_rounds.
Qed.

Lemma concat_map_fst_app (a b : list rd) : concat (map fst (a ++ b)) = concat (map fst a) ++ concat (map fst b).
Proof. rewrite map_app, concat_app. reflexivity. Qed.

Lemma copy_forwards_prefix : forall rs ws dn,
  let o := copy KPlain rs ws dn in
  co_fuel o = false ->
  exists tail, concat (map fst rs) = concat (writes_of (co_evs o)) ++ tail.
Proof.
  intros rs ws dn o Hf. destruct (copy_forwards_reads rs ws dn Hf) as (pre & E & Hc).
  exists (concat (map fst (co_reads_left o))). fold o in E, Hc. rewrite Hc. rewrite E at 1. apply concat_map_fst_app.
Qed.

(* err = nil only after an EOF (a nil error is not returned on any other path) *)
Lemma copy_loop_nil_only_eof : forall rs ws written acc,
  co_fuel (copy_loop rs ws written acc) = false -> co_err (copy_loop rs ws written acc) = CNil ->
  exists pre d, rs = pre ++ (d, REOF) :: co_reads_left (copy_loop rs ws written acc) /\ forallb rnil pre = true.
Proof.
  intros rs ws written acc Hf He. pose proof (copy_loop_spec rs ws written acc) as H.
  unfold loop_spec in H. rewrite Hf, He in H. destruct H as (pre & d & er & E & Hn & _ & ->). now exists pre, d.
Qed.

(* after a Write that failed or came up short nothing more is read or written *)
Lemma copy_loop_stops_at_bad_write : forall rs ws written acc,
  co_err (copy_loop rs ws written acc) = CWrite \/ co_err (copy_loop rs ws written acc) = CShortWrite ->
  exists evs p, co_evs (copy_loop rs ws written acc) = evs ++ [EWrite p].
Proof.
  intros rs ws written acc He. pose proof (copy_loop_spec rs ws written acc) as H. unfold loop_spec in H.
  destruct (co_fuel _); [destruct He; congruence|]. destruct H as (pre & d & er & _ & _ & Hev & Hd).
  assert (d <> []) by (destruct He as [He|He]; now rewrite He in Hd).
  destruct d as [|b d]; [contradiction|]. exists (acc ++ rounds pre ++ [ERead]), (b :: d).
  rewrite Hev, rounds_app, <- !app_assoc. reflexivity.
Qed.

(* both ends are closed, last of all and once each, on every path (delegated or not, fuel or not) *)
Fixpoint no_close (es : list cev) : bool :=
  match es with [] => true | ECloseSrc :: _ => false | ECloseDst :: _ => false | _ :: t => no_close t end.
Lemma no_close_app a b : no_close (a ++ b) = no_close a && no_close b.
Proof. induction a as [|e a IH]; cbn [app no_close]; [reflexivity|]. destruct e; cbn [andb]; auto. Qed.

Lemma copy_loop_no_close : forall rs ws written acc, no_close acc = true -> no_close (co_evs (copy_loop rs ws written acc)) = true.
Proof.
  induction rs as [|[data er] rs IH]; intros ws written acc Ha; cbn [copy_loop co_evs]; [exact Ha|].
  assert (H1 : no_close (acc ++ [ERead]) = true) by (rewrite no_close_app, Ha; reflexivity).
  destruct data as [|b data].
  - destruct er; cbn [co_evs]; auto.
  - destruct ws as [|w ws]; cbn [co_evs]; [exact H1|].
    assert (H2 : no_close ((acc ++ [ERead]) ++ [EWrite (b :: data)]) = true) by (rewrite no_close_app, H1; reflexivity).
    destruct (w_err w); cbn [co_evs]; [exact H2|].
    destruct (negb _); cbn [co_evs]; [exact H2|].
    destruct er; cbn [co_evs]; auto.
Qed.

Lemma copy_closes_both : forall k rs ws dn,
  exists evs, co_evs (copy k rs ws dn) = evs ++ [ECloseSrc; ECloseDst] /\ no_close evs = true.
Proof.
  intros k rs ws dn. destruct k; cbn [copy co_evs].
  - exists [EWriteTo]. split; reflexivity.
  - exists [EReadFrom]. split; reflexivity.
  - eexists. split; [reflexivity|]. apply copy_loop_no_close. reflexivity.
Qed.

(* the count returned: with writers that report what they took (nw = len, no error), `written` is the
   number of bytes handed over *)
Definition wlen (es : list cev) : Z := zlen (concat (writes_of es)).
Lemma wlen_app a b : wlen (a ++ b) = wlen a + wlen b.
Proof. unfold wlen, zlen. rewrite writes_of_app, concat_app, app_length. lia. Qed.
Lemma wlen_write p : wlen [EWrite p] = zlen p.
Proof. unfold wlen. cbn. now rewrite app_nil_r. Qed.

Lemma copy_loop_written : forall rs ws written acc, forallb honest ws = true ->
  co_written (copy_loop rs ws written acc) = written + wlen (co_evs (copy_loop rs ws written acc)) - wlen acc.
Proof.
  induction rs as [|[d er] rs IH]; intros ws written acc Hh; cbn [copy_loop]; [cbn; lia|].
  pose proof (wlen_app acc [ERead]) as H1. change (wlen [ERead]) with 0 in H1. destruct d as [|b d].
  - destruct er; [rewrite IH by exact Hh|..]; cbn [co_written co_evs]; lia.
  - destruct ws as [|[[|]|] ws]; try discriminate; [cbn [co_written co_evs]; lia|].
    cbn [w_err w_count]. rewrite Z.eqb_refl. cbn [negb].
    pose proof (wlen_app (acc ++ [ERead]) [EWrite (b :: d)]) as H2. rewrite wlen_write in H2. unfold zlen in H2.
    destruct (Z.ltb_spec 0 (Z.of_nat (length (b :: d)))); [|cbn [length] in *; lia].
    destruct er; [rewrite IH by exact Hh|..]; cbn [co_written co_evs]; lia.
Qed.

Lemma copy_written_counts : forall rs ws dn, forallb honest ws = true ->
  co_written (copy KPlain rs ws dn) = zlen (concat (writes_of (co_evs (copy KPlain rs ws dn)))).
Proof.
  intros rs ws dn Hh. fold (wlen (co_evs (copy KPlain rs ws dn))). cbn [copy co_written co_evs].
  rewrite copy_loop_written, wlen_app by exact Hh. cbn. lia.
Qed.

(* completeness: a source that ends with EOF after any number of successful reads, into a sink that
   takes whatever it is given: the loop ends there, err = nil *)
Lemma copy_loop_complete pre d left : forall ws written acc,
  forallb rnil pre = true -> (length pre + 1 <= length ws)%nat -> forallb honest ws = true ->
  exists wr evs ws', copy_loop (pre ++ (d, REOF) :: left) ws written acc = mkCo wr CNil evs left ws' false.
Proof.
  induction pre as [|[dd ee] pre IH]; intros ws written acc Hn Hl Hh; cbn [app copy_loop].
  - destruct d as [|b d]; [now eexists _, _, _|].
    destruct ws as [|[[|]|] ws]; try discriminate; [cbn in Hl; lia|].
    cbn [w_err w_count]. rewrite Z.eqb_refl. now eexists _, _, _.
  - cbn [forallb length] in Hn, Hl. apply andb_prop in Hn as [He Hn]. destruct ee; try discriminate.
    destruct dd as [|b dd]; [apply IH; try assumption; lia|].
    destruct ws as [|[[|]|] ws]; try discriminate; [cbn in Hl; lia|].
    cbn [w_err w_count]. rewrite Z.eqb_refl. apply andb_prop in Hh as [_ Hh]. cbn [length] in Hl.
    apply IH; try assumption; lia.
Qed.

(* ... EVERYTHING is forwarded, and the count returned is the number of bytes forwarded *)
Lemma copy_complete : forall pre d left ws dn,
  forallb rnil pre = true -> (length pre + 1 <= length ws)%nat -> forallb honest ws = true ->
  let o := copy KPlain (pre ++ (d, REOF) :: left) ws dn in
  co_fuel o = false /\ co_err o = CNil /\
  concat (writes_of (co_evs o)) = concat (map fst pre) ++ d /\
  co_written o = zlen (concat (map fst pre) ++ d).
Proof.
  intros pre d left ws dn Hn Hl Hh o.
  destruct (copy_loop_complete pre d left ws 0 [] Hn Hl Hh) as (wr & evs & ws' & E).
  assert (Hf : co_fuel o = false) by (subst o; cbn [copy co_fuel]; now rewrite E).
  destruct (copy_forwards_reads _ ws dn Hf) as (pre' & E1 & Hc). fold o in E1, Hc.
  replace (co_reads_left o) with left in E1 by (subst o; cbn [copy co_reads_left]; now rewrite E).
  replace (pre ++ (d, REOF) :: left) with ((pre ++ [(d, REOF)]) ++ left) in E1 by now rewrite <- app_assoc.
  apply app_inv_tail in E1. subst pre'.
  rewrite concat_map_fst_app in Hc. cbn [map fst concat] in Hc. rewrite app_nil_r in Hc.
  repeat split; [exact Hf|subst o; cbn [copy co_err]; now rewrite E|exact Hc|].
  rewrite <- Hc. now apply copy_written_counts.
Qed.

(* the uplink of client.RouteTCP *)
Lemma read_at_least1_spec : forall rs first rest,
  read_at_least1 rs = Some (first, rest) ->
  first <> [] /\ exists pre er, rs = pre ++ (first, er) :: rest /\ concat (map fst pre) = [].
Proof.
  induction rs as [|[d er] rs IH]; intros first rest H; cbn [read_at_least1] in H; [discriminate|].
  destruct d as [|b d].
  - destruct er; try discriminate. destruct (IH _ _ H) as (Hne & pre & er' & E & Hc).
    split; [exact Hne|]. exists (([], RNil) :: pre), er'. split; [cbn [app]; f_equal; exact E|exact Hc].
  - injection H as <- <-. split; [discriminate|]. exists [], er. split; reflexivity.
Qed.

Lemma read_from_prefix : forall rs, exists tail, concat (map fst rs) = concat (swrites (read_from rs)) ++ tail.
Proof.
  induction rs as [|[d er] rs IH]; cbn [read_from].
  - exists []. reflexivity.
  - destruct er; try (eexists; reflexivity). destruct d as [|b d]; [eexists; reflexivity|].
    destruct IH as (tail & E). exists tail. cbn [swrites map fst concat]. rewrite E, <- app_assoc. reflexivity.
Qed.

Lemma swrites_app a b : swrites (a ++ b) = swrites a ++ swrites b.
Proof. induction a as [|e a IH]; cbn [app swrites]; [reflexivity|]. destruct e; rewrite ?IH; reflexivity. Qed.

(* every byte the uplink writes to the stream is the next byte the local peer sent: the concatenation
   of its Stream writes is a prefix of the concatenation of what the local connection's reads returned *)
Lemma route_tcp_up_prefix : forall rs, exists tail, concat (map fst rs) = concat (swrites (route_tcp_up rs)) ++ tail.
Proof.
  intros rs. unfold route_tcp_up. destruct (read_at_least1 rs) as [[first rest]|] eqn:H.
  - destruct (read_at_least1_spec _ _ _ H) as (_ & pre & er & E & Hc).
    destruct (read_from_prefix rest) as (tail & Et). exists tail.
    rewrite E, concat_map_fst_app, Hc. cbn [app map fst concat swrites]. rewrite swrites_app. cbn [swrites]. rewrite app_nil_r.
    rewrite Et, <- app_assoc. reflexivity.
  - eexists. cbn [swrites concat app]. reflexivity.
Qed.

(* and nothing is held back: while the local connection's reads succeed with data, every read is a write *)
Lemma read_from_complete : forall ds, (forall d, In d ds -> d <> []) ->
  forall tail er, er <> RNil -> swrites (read_from (map (fun d => (d, RNil)) ds ++ ([], er) :: tail)) = ds.
Proof.
  induction ds as [|d ds IH]; intros Hne tail er Her; cbn [map app read_from].
  - destruct er; [contradiction| |]; reflexivity.
  - destruct d as [|b d]; [exfalso; apply (Hne []); [left; reflexivity|reflexivity]|].
    cbn [swrites]. f_equal. apply IH; [intros x Hx; apply Hne; right; exact Hx|exact Her].
Qed.

(* the local connection is closed on every path *)
Lemma route_tcp_up_closes_local : forall rs, In SCloseLocal (route_tcp_up rs).
Proof.
  intros rs. unfold route_tcp_up. destruct (read_at_least1 rs) as [[first rest]|]; [|left; reflexivity].
  right. apply in_or_app. right. left. reflexivity.
Qed.

(* Composition: what arrives at the far end of a relayed stream.
   `written`/`reads` stand for the bytes accepted by the writes / returned by the reads of one stream
   direction of the session pair (Model/Mux.v: run_written / run_reads); the hypothesis Hmux is exactly
   the conclusion of C01_reads_prefix_of_written.  The uplink feeds the stream from the local
   connection's read script `rs`; the far end pumps the stream into its connection with Copy's loop,
   whose read script `rs2` is what Stream.Read returned. *)
Lemma relay_chain : forall (rs rs2 : list rd) (ws : list wout) (dn : Z) (written reads : list N),
  written = concat (swrites (route_tcp_up rs)) ->
  (exists t, written = reads ++ t) ->
  concat (map fst rs2) = reads ->
  let o := copy KPlain rs2 ws dn in
  co_fuel o = false ->
  exists tail, concat (map fst rs) = concat (writes_of (co_evs o)) ++ tail.
Proof.
  intros rs rs2 ws dn written reads Hw (t & Hmux) Hr o Hf.
  destruct (route_tcp_up_prefix rs) as (t1 & E1).
  destruct (copy_forwards_prefix rs2 ws dn Hf) as (t2 & E2). fold o in E2.
  exists (t2 ++ t ++ t1). rewrite E1, <- Hw, Hmux, <- Hr, E2, <- !app_assoc. reflexivity.
Qed.

(* non-vacuity: concrete scripts that meet the hypotheses *)
Example copy_example_mixed :
  let rs := [([1;2;3]%N, RNil); ([], RNil); ([4]%N, RNil); ([5;6]%N, REOF); ([7]%N, RNil)] in
  let o := copy KPlain rs [WFull false; WFull false; WFull false] 0 in
  co_fuel o = false /\ co_err o = CNil /\ co_written o = 6 /\
  writes_of (co_evs o) = [[1;2;3]; [4]; [5;6]]%N /\ co_reads_left o = [([7]%N, RNil)] /\
  co_evs o = [ERead; EWrite [1;2;3]%N; ERead; ERead; EWrite [4]%N; ERead; EWrite [5;6]%N; ECloseSrc; ECloseDst].
Proof. vm_compute. repeat split; reflexivity. Qed.

Example copy_example_short_write :
  let o := copy KPlain [([1;2;3]%N, RNil); ([4]%N, REOF)] [WN 2 false; WFull false] 0 in
  co_err o = CShortWrite /\ co_written o = 2 /\ nreads (co_evs o) = 1%nat /\ co_fuel o = false.
Proof. vm_compute. repeat split; reflexivity. Qed.

Example route_example :
  route_tcp_up [([], RNil); ([9;8]%N, RNil); ([7]%N, RNil); ([], REOF)] =
  [SWrite [9;8]%N; SWrite [7]%N; SCloseLocal; SCloseStream] /\
  route_tcp_up [([], REOF); ([1]%N, RNil)] = [SCloseLocal].
Proof. vm_compute. split; reflexivity. Qed.
