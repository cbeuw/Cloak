(* C14 - Datagram (UDP) mode preserves message boundaries and stream isolation.
   This file contains only the property theorems, each closed in a line by a lemma of Proofs/Datagram.v.
   Vocabulary (Model/Datagram.v, Proofs/Datagram.v):
     steps d es      run of an arbitrary list of operations (Wr closing payload | Rd k | Cl) on the
                     datagram pipe, giving the final state and one observation per operation;
     accepted es os  the payloads of the writes that were stored (outcome WrStored), in order;
     delivered os    the byte strings returned by the successful reads, in order;
     pending d       the queue of whole datagrams the state holds (buf cut at the lengths in lens);
     written es      the payloads of all writes of es, in order. *)
From Coq Require Import NArith ZArith List.
From Cloak Require Import Gen.Consts Model.Datagram Proofs.Datagram.
Import ListNotations.

(* length queue and byte buffer never drift apart *)
Theorem C14_dg_inv : forall d, reachable d -> list_sum (lens d) = length (buf d).
Proof. exact (fun d H => rep_inv d _ (reachable_rep d H)). Qed.
Print Assumptions C14_dg_inv.

(* Boundaries: for EVERY sequence of operations (writes - closing or not -, reads with any buffer
   sizes, Close), the successful reads return exactly the stored datagrams d_1, d_2, ... whole, in
   arrival order, each at most once (a prefix of the accepted list, position by position), and what
   has not been returned yet is still held intact.  Since the statement holds for every operation
   list it holds for every prefix of a run. *)
Theorem C14_boundaries : forall es d os, steps dg_init es = (d, os) ->
  accepted es os = delivered os ++ pending d
  /\ lens d = map (@length N) (pending d) /\ buf d = concat (pending d).
Proof. exact boundaries. Qed.
Print Assumptions C14_boundaries.

(* what a read does in any reachable state, for any buffer size k *)
Theorem C14_read_outcomes : forall d k, reachable d ->
  match pending d with
  | [] => dg_read d k = (d, if closed d then RdEOF else RdEmpty)
  | x :: rest =>
      if Nat.ltb k (length x) then dg_read d k = (d, RdShort)
      else exists d', dg_read d k = (d', RdData x) /\ pending d' = rest /\ closed d' = closed d
                      /\ reachable d'
  end.
Proof. exact read_outcomes. Qed.
Print Assumptions C14_read_outcomes.

(* A read buffer too small for the next datagram: error, state UNCHANGED, and the datagram is
   neither consumed nor truncated - any later read with room returns it whole. *)
Theorem C14_short_read_noop : forall d k x rest, reachable d -> pending d = x :: rest -> k < length x ->
  dg_read d k = (d, RdShort)
  /\ forall k', length x <= k' -> exists d', dg_read d k' = (d', RdData x) /\ pending d' = rest.
Proof. exact short_read_noop. Qed.
Print Assumptions C14_short_read_noop.

Theorem C14_short_read_state_unchanged : forall d k, snd (dg_read d k) = RdShort -> fst (dg_read d k) = d.
Proof. exact short_read_state_unchanged. Qed.
Print Assumptions C14_short_read_state_unchanged.

(* While the pipe is open (no closing frame, no Close) and below recvBufferSizeLimit every
   datagram written is accepted ... *)
Theorem C14_all_accepted : forall es d os,
  data_only es -> (N.of_nat (total_bytes es) <= buf_limit)%N ->
  steps dg_init es = (d, os) -> accepted es os = written es /\ closed d = false.
Proof. intros es d os Hdo Hl Hs. exact (all_accepted es dg_init d os eq_refl Hdo Hl Hs). Qed.
Print Assumptions C14_all_accepted.

(* ... and after draining with large-enough buffers each of d_1..d_m has been delivered exactly
   once, whole, in arrival order, and the pipe is empty. *)
Theorem C14_exactly_once : forall es ks d os,
  data_only es -> (N.of_nat (total_bytes es) <= buf_limit)%N ->
  steps dg_init es = (d, os) ->
  Forall2 (fun k x => length x <= k) ks (pending d) ->
  exists d' os', steps dg_init (es ++ map Rd ks) = (d', os ++ os')
    /\ delivered (os ++ os') = written es /\ lens d' = [] /\ buf d' = [].
Proof. exact exactly_once. Qed.
Print Assumptions C14_exactly_once.

(* Closing frame: the datagrams written before it remain readable, then end-of-stream; nothing
   is accepted afterwards. *)
Theorem C14_closing : forall d p ks k, reachable d -> closed d = false ->
  (N.of_nat (length (buf d)) <= buf_limit)%N ->
  Forall2 (fun k x => length x <= k) ks (pending d) ->
  exists d1 d2,
    dg_write d true p = (d1, WrClosing) /\ pending d1 = pending d /\ closed d1 = true
    /\ steps d1 (map Rd ks ++ [Rd k]) = (d2, map (fun x => ORd (RdData x)) (pending d) ++ [ORd RdEOF])
    /\ (forall c q, dg_write d2 c q = (d2, WrClosedPipe))
    /\ (forall c q, dg_write d1 c q = (d1, WrClosedPipe)).
Proof. exact closing_semantics. Qed.
Print Assumptions C14_closing.

Theorem C14_local_close : forall d ks k, reachable d ->
  Forall2 (fun k x => length x <= k) ks (pending d) ->
  exists d2, steps (dg_close d) (map Rd ks ++ [Rd k])
             = (d2, map (fun x => ORd (RdData x)) (pending d) ++ [ORd RdEOF]).
Proof. exact local_close_semantics. Qed.
Print Assumptions C14_local_close.

(* Sender: a datagram too large for one frame is refused and nothing is sent; one that fits goes
   out as exactly one frame carrying the whole input; there is never a split or a truncation. *)
Theorem C14_oversize_refused : forall maxu inp, (Z.of_nat (length inp) > maxu)%Z -> (0 <= maxu)%Z ->
  usw_write maxu false inp = (0%Z, SwShortBuffer, []).
Proof. exact oversize_refused. Qed.
Print Assumptions C14_oversize_refused.

Theorem C14_fitting_one_frame : forall maxu inp, (0 < Z.of_nat (length inp) <= maxu)%Z ->
  usw_write maxu false inp = (Z.of_nat (length inp), SwNil, [inp]).
Proof. exact fitting_one_frame. Qed.
Print Assumptions C14_fitting_one_frame.

Theorem C14_never_splits : forall maxu c inp n e fs, usw_write maxu c inp = (n, e, fs) ->
  (fs = [] /\ n = 0%Z) \/ (fs = [inp] /\ n = Z.of_nat (length inp) /\ e = SwNil).
Proof. exact usw_never_splits. Qed.
Print Assumptions C14_never_splits.

(* the frame maximum is the one MakeSession derives; a maximal datagram plus header plus maximal
   padding and tag fits the configured on-wire limit (obligations about the generated constants) *)
Theorem C14_max_unit_consts :
  max_unit 16401 = mux_maxStreamUnitWrite_16401
  /\ max_unit mux_default_MsgOnWireSizeLimit = mux_default_maxStreamUnitWrite
  /\ (0 < max_unit 16401)%Z
  /\ forall l, (max_unit l + mux_frameHeaderLength + mux_maxExtraLen <= l)%Z.
Proof. exact (conj max_unit_16401 (conj max_unit_default (conj max_unit_positive_16401 max_unit_fits))). Qed.
Print Assumptions C14_max_unit_consts.

(* Isolation (receive side of an unordered session, Session.recvDataFromRemote): starting from a
   session on which the local side has opened any set [ids] of streams, for EVERY sequence of frame arrivals (any stream ids, data / stream-closing / session-closing), reads and
   local closes, and for every stream s: the reads on s returned exactly the datagrams stored for s,
   in order, each at most once, and the rest is still pending on s.  Payloads of other streams never
   appear on s. *)
Theorem C14_isolation : forall ids es st os, ssteps (ss_opened ids) es = (st, os) ->
  forall s, s_accepted s es os = s_delivered s es os ++ spending s st.
Proof. exact isolation. Qed.
Print Assumptions C14_isolation.

(* Exactly once while the stream is open and the session healthy: the frame is stored on its own
   stream and no other stream's pipe is touched. *)
Theorem C14_session_accepts : forall st f, sreachable st -> sess_closed st = false ->
  f_closing f = ClNothing ->
  (lookup (f_sid f) (table st) = None \/ live_of (f_sid f) st = true) ->
  (N.of_nat (length (buf (pipe_of (f_sid f) st))) <= buf_limit)%N ->
  exists st' r, ss_recv st f = (st', r) /\ (r = RvStored \/ r = RvNewStored)
    /\ spending (f_sid f) st' = spending (f_sid f) st ++ [f_payload f]
    /\ forall s, s <> f_sid f -> pipe_of s st' = pipe_of s st /\ live_of s st' = live_of s st.
Proof. exact session_accepts. Qed.
Print Assumptions C14_session_accepts.

(* ---- Relay level (design finding F15) ------------------------------------------------------
   Around the Stream interface the client (client.RouteUDP) and the server (serveSession with a "udp"
   ProxyBook entry) move datagrams between a UDP socket and a stream.  Both relays are driven on
   loopback UDP by harness/client/c14_udp_test.go and harness/server/c14_udp_test.go.

   Client relay, current code (buffers of 65535 bytes since /repo commit e32244c): a datagram that
   fits one frame is forwarded whole, a larger one is refused by Stream.Write. *)
Theorem C14_relay_full : forall d,
  ((0 < Z.of_nat (length d) <= max_unit 16401)%Z ->
     route_udp_up (max_unit 16401) d = (Z.of_nat (length d), SwNil, [d]))
  /\ ((max_unit 16401 < Z.of_nat (length d))%Z ->
     route_udp_up (max_unit 16401) d = (0%Z, SwShortBuffer, [])).
Proof. exact relay_full. Qed.
Print Assumptions C14_relay_full.

(* ... and towards the application: a datagram of the peer that fits the relay buffer (every
   datagram a frame can carry does: max_unit 16401 < relay_buf) is handed over whole *)
Theorem C14_relay_down_whole : forall bufsize p x rest, reachable p -> pending p = x :: rest ->
  (N.of_nat (length x) <= bufsize)%N ->
  exists p', relay_down bufsize p = (p', Some x) /\ pending p' = rest.
Proof. exact relay_down_whole. Qed.
Print Assumptions C14_relay_down_whole.

Theorem C14_relay_buf_covers_frames : (0 <= max_unit 16401 < Z.of_N relay_buf)%Z.
Proof. exact max_unit_lt_relay_buf. Qed.
Print Assumptions C14_relay_buf_covers_frames.

(* What the fix repaired: with the former 8192-byte buffers (relay_buf_prefix) the first half of that statement
   was false - an 8193-byte datagram, well inside the frame maximum, went out cut to 8192 bytes
   (C14_relay_cut says exactly what went out), and one coming from the peer stopped the relay. *)
Definition C14_relay_prefix_full : Prop := forall d,
  (0 < Z.of_nat (length d) <= max_unit 16401)%Z ->
  relay_up relay_buf_prefix (max_unit 16401) d = (Z.of_nat (length d), SwNil, [d]).

Theorem C14_refuted_prefix_relay : ~ C14_relay_prefix_full.
Proof. exact relay_before_fix_refuted. Qed.
Print Assumptions C14_refuted_prefix_relay.

Theorem C14_refuted_prefix_relay_down : exists p x,
  reachable p /\ pending p = [x] /\ (Z.of_nat (length x) <= max_unit 16401)%Z
  /\ relay_down relay_buf_prefix p = (p, None).
Proof. exact relay_down_before_fix_refuted. Qed.
Print Assumptions C14_refuted_prefix_relay_down.

(* for any buffer size: whole up to the buffer; above a buffer that is not larger than a frame the
   first [bufsize] bytes are sent as if they were the datagram *)
Theorem C14_relay_whole_upto_buffer : forall bufsize maxu d,
  (0 < N.of_nat (length d) <= bufsize)%N -> (Z.of_nat (length d) <= maxu)%Z ->
  relay_up bufsize maxu d = (Z.of_nat (length d), SwNil, [d]).
Proof. exact relay_up_whole. Qed.
Print Assumptions C14_relay_whole_upto_buffer.

Theorem C14_relay_cut : forall bufsize maxu d, (0 < bufsize)%N -> (Z.of_N bufsize <= maxu)%Z ->
  (bufsize < N.of_nat (length d))%N ->
  relay_up bufsize maxu d = (Z.of_N bufsize, SwNil, [firstn (N.to_nat bufsize) d]).
Proof. exact relay_up_cut. Qed.
Print Assumptions C14_relay_cut.

(* Server relay (OPEN known finding): Stream.ReadFrom reads the proxy server's datagram into
   maxStreamUnitWrite bytes.  "A datagram too large for one frame is refused at the sender" is FALSE
   there: a 16133-byte datagram is forwarded as its first 16132 bytes.  What holds: datagrams up
   to the frame maximum go out whole; a larger one goes out as exactly its first maxu bytes. *)
Definition C14_server_relay_full : Prop := forall d,
  (max_unit 16401 < Z.of_nat (length d))%Z -> stream_read_from_dgram (max_unit 16401) d = [].

Theorem C14_server_relay_refuted : ~ C14_server_relay_full.
Proof. exact server_relay_refuted. Qed.
Print Assumptions C14_server_relay_refuted.

Theorem C14_server_relay_partial : forall maxu d, (0 < maxu)%Z ->
  ((0 < Z.of_nat (length d) <= maxu)%Z -> stream_read_from_dgram maxu d = [d])
  /\ ((maxu < Z.of_nat (length d))%Z ->
       stream_read_from_dgram maxu d = [firstn (Z.to_nat maxu) d]
       /\ Z.of_nat (length (firstn (Z.to_nat maxu) d)) = maxu).
Proof. exact server_relay_partial. Qed.
Print Assumptions C14_server_relay_partial.

(* non-vacuity: a concrete run with short reads, an empty datagram, a closing frame *)
Theorem C14_example_run :
  let es := [Wr false [1;2;3]; Rd 2; Wr false [4]; Wr false []; Rd 3; Rd 0; Rd 5; Rd 1; Wr true [9]; Rd 1; Wr false [7]]%N in
  snd (steps dg_init es) =
    [OWr WrStored; ORd RdShort; OWr WrStored; OWr WrStored; ORd (RdData [1;2;3]); ORd RdShort;
     ORd (RdData [4]); ORd (RdData []); OWr WrClosing; ORd RdEOF; OWr WrClosedPipe]%N.
Proof. exact ex_run. Qed.
Print Assumptions C14_example_run.
