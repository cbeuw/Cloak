(* Lemmas about the byte helpers, counter-mode xor and the generic encrypt-then-MAC AEAD.
   The round trip open (seal p) = Some p is proved once, for every key stream that is long
   enough and every MAC of fixed length - no cryptographic assumption is involved. *)
From Coq Require Import NArith List Bool Lia Arith PeanoNat ZArith ZifyN ZifyNat ZifyBool.
From Cloak Require Import Model.Crypto.CBytes Model.AEAD Proofs.ListFacts.
Import ListNotations.

Lemma lxor_cancel : forall x y : N, N.lxor (N.lxor x y) y = x.
Proof. intros x y. now rewrite N.lxor_assoc, N.lxor_nilpotent, N.lxor_0_r. Qed.

Lemma xorl_length : forall a b, length (xorl a b) = Nat.min (length a) (length b).
Proof.
  induction a as [|x a IH]; intros [|y b]; cbn [xorl length Nat.min]; try reflexivity.
  now rewrite IH.
Qed.

Lemma xorl_length_le : forall a b, length a <= length b -> length (xorl a b) = length a.
Proof. intros a b H. rewrite xorl_length. lia. Qed.

Lemma xorl_involutive : forall a b, length a <= length b -> xorl (xorl a b) b = a.
Proof.
  induction a as [|x a IH]; intros [|y b] H; cbn [xorl length] in *; try reflexivity; try lia.
  rewrite lxor_cancel, IH by lia. reflexivity.
Qed.

Lemma xorl_app : forall a1 a2 b1 b2, length a1 = length b1 ->
  xorl (a1 ++ a2) (b1 ++ b2) = xorl a1 b1 ++ xorl a2 b2.
Proof.
  induction a1 as [|x a1 IH]; intros a2 [|y b1] b2 H; cbn [length] in H; try discriminate.
  - reflexivity.
  - cbn [app xorl]. rewrite IH by lia. reflexivity.
Qed.

Lemma bytes_eqb_refl : forall a, bytes_eqb a a = true.
Proof. induction a as [|x a IH]; cbn [bytes_eqb]; [reflexivity|]. now rewrite N.eqb_refl, IH. Qed.

Lemma bytes_eqb_eq : forall a b, bytes_eqb a b = true -> a = b.
Proof.
  induction a as [|x a IH]; intros [|y b] H; cbn [bytes_eqb] in H; try discriminate; try reflexivity.
  apply andb_prop in H. destruct H as [H1 H2]. apply N.eqb_eq in H1. subst y. f_equal. now apply IH.
Qed.

Lemma le_bytes_length : forall n x, length (le_bytes n x) = n.
Proof. induction n as [|n IH]; intros x; cbn [le_bytes length]; [reflexivity|]. now rewrite IH. Qed.

Lemma be_bytes_length : forall n x, length (be_bytes n x) = n.
Proof. intros. unfold be_bytes. now rewrite rev_length, le_bytes_length. Qed.

Lemma zeros_length : forall n, length (zeros n) = n.
Proof. intros. apply repeat_length. Qed.

Lemma force_length : forall n l, length (firstn n (l ++ zeros n)) = n.
Proof. intros. rewrite firstn_length, app_length, zeros_length. lia. Qed.

Lemma stream_blocks_length : forall blk B, (forall c, length (blk c) = B) ->
  forall n c, length (stream_blocks blk c n) = n * B.
Proof.
  intros blk B HB. induction n as [|n IH]; intros c; cbn [stream_blocks length]; [reflexivity|].
  rewrite app_length, HB, IH. lia.
Qed.

Lemma blocks_for_covers : forall B len, 0 < B -> len <= blocks_for B len * B.
Proof.
  intros B len HB. unfold blocks_for.
  pose proof (Nat.div_mod (len + (B - 1)) B) as E. pose proof (Nat.mod_upper_bound (len + (B - 1)) B). nia.
Qed.

(* ---- the generic AEAD -------------------------------------------------------------- *)
Section AEADProofs.
  Variable stream : list N -> list N -> nat -> list N.
  Variable mac : list N -> list N -> list N -> list N -> list N.
  Variable tag_len : nat.
  Hypothesis stream_covers : forall k n len, len <= length (stream k n len).
  Hypothesis mac_len : forall k n a c, length (mac k n a c) = tag_len.

  Lemma aead_enc_length : forall k n p, length (aead_enc stream k n p) = length p.
  Proof. intros. unfold aead_enc. apply xorl_length_le, stream_covers. Qed.

  Lemma aead_enc_involutive : forall k n p, aead_enc stream k n (aead_enc stream k n p) = p.
  Proof.
    intros. unfold aead_enc at 1. rewrite aead_enc_length. unfold aead_enc.
    apply xorl_involutive, stream_covers.
  Qed.

  Lemma aead_seal_length : forall k n p a,
    length (aead_seal stream mac k n p a) = length p + tag_len.
  Proof. intros. unfold aead_seal. now rewrite app_length, aead_enc_length, mac_len. Qed.

  Lemma aead_seal_split : forall k n p a,
    aead_seal stream mac k n p a = aead_enc stream k n p ++ mac k n a (aead_enc stream k n p).
  Proof. reflexivity. Qed.

  Theorem aead_open_seal : forall k n p a,
    aead_open stream mac tag_len k n (aead_seal stream mac k n p a) a = Some p.
  Proof.
    intros k n p a. unfold aead_open. rewrite aead_seal_length.
    destruct (Nat.ltb_spec (length p + tag_len) tag_len) as [Hlt|Hge]; [lia|].
    unfold aead_seal. rewrite firstn_app_exact, skipn_app_exact by (rewrite aead_enc_length; lia).
    rewrite bytes_eqb_refl. now rewrite aead_enc_involutive.
  Qed.

  Lemma aead_open_length : forall k n c a p,
    aead_open stream mac tag_len k n c a = Some p -> length p + tag_len = length c.
  Proof.
    clear mac_len. (* lia would take it into the proof, and the closed lemma would ask for it *)
    intros k n c a p. unfold aead_open.
    destruct (Nat.ltb_spec (length c) tag_len) as [Hlt|Hge]; [discriminate|].
    destruct (bytes_eqb _ _); [|discriminate].
    intros H. injection H as <-. rewrite aead_enc_length, firstn_length. lia.
  Qed.

  (* what opens is the sealing of what it opens to: the scheme is a function, it has no second ciphertext *)
  Lemma aead_open_inv : forall k n c a p,
    aead_open stream mac tag_len k n c a = Some p -> c = aead_seal stream mac k n p a.
  Proof.
    intros k n c a p. unfold aead_open.
    destruct (Nat.ltb (length c) tag_len); [discriminate|].
    destruct (bytes_eqb _ _) eqn:E; [|discriminate].
    intros H. injection H as <-. apply bytes_eqb_eq in E.
    unfold aead_seal. rewrite aead_enc_involutive, <- E. symmetry. apply firstn_skipn.
  Qed.
End AEADProofs.

(* ---- counter mode: the key stream of aead_enc made of blocks ------------------------------- *)
Section CtrXor.
  Variable blk : N -> list N.
  Variable B : nat.
  Hypothesis blk_len : forall c, length (blk c) = B.
  Hypothesis B_pos : 0 < B.

  Lemma ctr_stream_covers : forall c len, len <= length (stream_blocks blk c (blocks_for B len)).
  Proof. intros. rewrite (stream_blocks_length blk B blk_len). now apply blocks_for_covers. Qed.

  Lemma ctr_xor_length : forall c d, length (ctr_xor blk B c d) = length d.
  Proof.
    intros c d. exact (aead_enc_length (fun _ _ len => stream_blocks blk c (blocks_for B len))
                         (fun _ _ => ctr_stream_covers c) [] [] d).
  Qed.

  (* xor with the same key stream twice is the identity *)
  Lemma ctr_xor_involutive : forall c d, ctr_xor blk B c (ctr_xor blk B c d) = d.
  Proof.
    intros c d. exact (aead_enc_involutive (fun _ _ len => stream_blocks blk c (blocks_for B len))
                         (fun _ _ => ctr_stream_covers c) [] [] d).
  Qed.
End CtrXor.
