(* C01, last clause, with timers: while every connection stays healthy and neither side closes
   the session, a session keeps working through any sequence of opens, writes, reads, accepts,
   stream closes, deliveries AND inactivity-timer ticks, provided that at each tick both sides
   have an open stream.  Combines the "healthy" invariant (MuxCalm) with the counting invariant
   (MuxCount): the timer looks at the stream counter, which equals the number of open streams. *)
From Coq Require Import NArith ZArith List Bool Lia.
From Coq Require Import ZifyN ZifyBool ZifyNat.
From Cloak Require Import Model.Mux Proofs.MuxBase Proofs.MuxSafety Proofs.MuxCalm Proofs.MuxCount.
Import ListNotations.
Local Open Scope N_scope.

Definition has_open (se : session) : Prop :=
  live_streams se <> [] /\ N.of_nat (length (live_streams se)) < two32.

Definition busy_at (y : sys) (l : label) : Prop :=
  match l with
  | LTick _ => forall x, has_open (sess y x)
  | LCloseSession _ | LFail _ | LBreak _ | LNotice _ _ => False
  | _ => True
  end.

Fixpoint busy_run (k : nat) (y : sys) (ls : list (label * list N)) : Prop :=
  match ls with
  | [] => True
  | (l, ch) :: t => busy_at y l /\ valid_picks k ch /\ busy_run k (fst (step y l ch)) t
  end.

Lemma fire_timers_busy fuel : forall y s ch y' ch' evs,
  fire_timers fuel y s ch = (y', ch', evs) -> se_count (sess y s) <> 0 ->
  y' = y \/ exists ts, y' = set_sess y s (upd_timers (sess y s) ts).
Proof.
  induction fuel as [|fuel IH]; intros y s ch y' ch' evs H Hn; cbn in H.
  - injection H as <- _ _. now left.
  - destruct (se_timers (sess y s)) as [|t rest]; [injection H as <- _ _; now left|].
    destruct (t <=? sy_now y)%Z; [|injection H as <- _ _; now left].
    rewrite sess_set_same in H. cbn [se_count upd_timers] in H.
    replace (se_count (sess y s) =? 0) with false in H by lia. cbn [andb] in H.
    apply IH in H; [|rewrite sess_set_same; exact Hn].
    right. destruct H as [->|(ts & ->)]; [now exists rest|].
    exists ts. rewrite sess_set_same. destruct s, y; reflexivity.
Qed.

Lemma count_nonzero se : CI se -> se_closed se = false -> has_open se -> se_count se <> 0.
Proof.
  intros Hci Hop [Hne Hlt]. rewrite (CI_count se Hci Hop), N.mod_small by exact Hlt.
  destruct (live_streams se); [congruence|cbn; lia].
Qed.

Lemma tick_H k y d ch y' evs :
  step_core y (LTick d) ch = (y', evs) -> Healthy k y -> CIs y -> (forall x, has_open (sess y x)) -> Healthy k y'.
Proof.
  intros H Hh Hc Hb. rewrite step_core_tick in H.
  destruct (fire_timers 64 (set_now y (sy_now y + d)%Z) SA ch) as [[y1 ch1] e1] eqn:E1.
  destruct (fire_timers 64 y1 SB ch1) as [[y2 ch2] e2] eqn:E2. injection H as <- _.
  assert (Hcnt : forall x, se_count (sess y x) <> 0).
  { intros x. apply count_nonzero; [apply Hc| |apply Hb]. destruct (Healthy_sess k y x Hh) as (Hcl & _). exact Hcl. }
  assert (Hh0 : Healthy k (set_now y (sy_now y + d)%Z)) by exact Hh.
  apply fire_timers_busy in E1; [|rewrite sess_set_now; apply Hcnt].
  assert (Hh1 : Healthy k y1 /\ se_count (sess y1 SB) = se_count (sess y SB)).
  { destruct E1 as [->|(ts & ->)]; [split; [exact Hh0|reflexivity]|].
    split; [|reflexivity]. apply Healthy_set_sess; [exact Hh0|exact (Healthy_sess k _ SA Hh0)]. }
  destruct Hh1 as [Hh1 Hc1].
  apply fire_timers_busy in E2; [|rewrite Hc1; apply Hcnt].
  destruct E2 as [->|(ts & ->)]; [exact Hh1|].
  apply Healthy_set_sess; [exact Hh1|exact (Healthy_sess k _ SB Hh1)].
Qed.

Lemma busy_step_core k y l ch y' evs :
  step_core y l ch = (y', evs) -> busy_at y l -> valid_picks k ch -> Healthy k y -> CIs y -> Healthy k y'.
Proof.
  intros H Hb Hv Hh Hc. destruct l; try contradiction; try (eapply step_core_H; eauto; exact I).
  eapply tick_H; eauto.
Qed.
Lemma busy_step k y l ch y' evs :
  step y l ch = (y', evs) -> busy_at y l -> valid_picks k ch -> Healthy k y -> CIs y -> Healthy k y'.
Proof.
  unfold step. intros H Hb Hv Hh Hc. destruct (step_core y l ch) as [y1 evs1] eqn:Es.
  destruct (resolve (sy_pend y1) y1) as [[y2 ps] evs2] eqn:Er. injection H as <- _.
  apply Healthy_set_pend. eapply resolve_H; [exact Er|]. eapply busy_step_core; eauto.
Qed.

Lemma busy_run_H k ls : forall y y' os,
  run y ls = (y', os) -> busy_run k y ls -> fresh_opens y ls -> WF y -> CIs y -> Healthy k y -> Healthy k y'.
Proof.
  induction ls as [|[l ch] t IH]; intros y y' os H Hb Hf Hwf Hc Hh; cbn in H; [injection H as <- _; exact Hh|].
  destruct (step y l ch) as [y1 o] eqn:Es. destruct (run y1 t) as [y2 os2] eqn:Er. injection H as <- _.
  destruct Hb as (Hb1 & Hv & Hb2). destruct Hf as [Hf1 Hf2]. rewrite Es in Hb2, Hf2. cbn [fst] in Hb2, Hf2.
  eapply IH; [exact Er|exact Hb2|exact Hf2|eapply step_WF; eauto|eapply step_CIs; eauto|eapply busy_step; eauto].
Qed.

(* non-vacuity: a tick far beyond the inactivity timeout while a stream is open on both sides *)
Definition busy_example_run : list (label * list N) :=
  [(LOpen SA, []); (LWrite SA 1 [7; 8; 9], [0]); (LDeliver SB 0, []); (LTick 99000000000, [])].
Example busy_example :
  busy_run 2 (init 2 false 331 30000000000 45000000000) busy_example_run /\
  fresh_opens (init 2 false 331 30000000000 45000000000) busy_example_run.
Proof.
  unfold busy_example_run. cbn [busy_run busy_at fresh_opens]. split.
  - split; [exact I|split; [constructor|]].
    split; [exact I|split; [repeat constructor|]].
    split; [exact I|split; [constructor|]].
    split; [|split; [constructor|exact I]].
    intros x. unfold has_open. destruct x; vm_compute; split; congruence.
  - split; [intros x E; injection E as <-; reflexivity|].
    split; [intros x E; discriminate|]. split; [intros x E; discriminate|]. split; [intros x E; discriminate|exact I].
Qed.
