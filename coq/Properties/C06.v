(* C06 - Client and server agree on identity, options and session key after the handshake.
   Only the property theorems, each a line or two from a lemma of Proofs/Auth.v, SessionKey.v, Connector.v.  Models: Model/Auth.v,
   Model/HelloGrammar.v; X25519 (dh, pub) and the AEAD (seal, open) are universally quantified
   and constrained by the stated hypotheses only - dh_comm is NOT proved for X25519. *)
From Coq Require Import NArith ZArith List.
From Cloak Require Import Gen.Consts Model.HelloGrammar Model.Auth Model.Crypto.GCM Proofs.Auth.
From Cloak Require Import Model.SessionKey Proofs.SessionKey.
Import ListNotations.
Local Open Scope N_scope.

(* The 48-byte plaintext round-trips for every 16-byte UID, every method name of at most 12 bytes
   with no NUL at either end (hence non-empty), every method byte, every session id below 2^32, both
   flag values and every timestamp the server's clock accepts. *)
Theorem C06_plaintext_roundtrip : forall i ts now,
  length (i_uid i) = 16%nat /\ (length (i_method i) <= 12)%nat /\
  (nth 0 (i_method i) 0 <> 0 /\ last (i_method i) 0 <> 0) /\ i_sid i < 2 ^ 32 ->
  ts < 2 ^ 64 -> in_window ts now = true ->
  unpack (pack i ts) now = UOk i.
Proof. exact plaintext_roundtrip. Qed.
Print Assumptions C06_plaintext_roundtrip.

(* The guards are exact: a NUL at either end of the name is eaten by bytes.Trim, a 13th byte is
   dropped by copy, an over-long UID spills into the method field. *)
Theorem C06_method_trailing_nul :
  unpack (pack (mkInfo ex_uid [97; 0] 1 5 false) 1700000000) 1700000000000000000%Z
  = UOk (mkInfo ex_uid [97] 1 5 false).
Proof. exact method_trailing_nul_lost. Qed.
Theorem C06_method_13_truncated :
  unpack (pack (mkInfo ex_uid [116;104;105;114;116;101;101;110;95;98;121;116;101] 1 5 false) 1700000000) 1700000000000000000%Z
  = UOk (mkInfo ex_uid [116;104;105;114;116;101;101;110;95;98;121;116] 1 5 false).
Proof. exact method_13_truncated. Qed.
Theorem C06_uid_18_spills :
  unpack (pack (mkInfo (ex_uid ++ [16; 17]) [97] 1 5 false) 1700000000) 1700000000000000000%Z
  = UOk (mkInfo ex_uid [97; 17] 1 5 false).
Proof. exact uid_18_spills. Qed.

(* The server accepts iff |ts * 10^9 - now| < 180 * 10^9 (nanoseconds, both comparisons strict), for
   timestamps below 2^62; outside the window the session id is never read. *)
Theorem C06_window : forall i (ts : N) (now : Z), info_in_domain i -> ts < 2 ^ 62 ->
  (exists i', unpack (pack i ts) now = UOk i') <-> (Z.abs (Z.of_N ts * 1000000000 - now) < 180 * 1000000000)%Z.
Proof. exact window_unpack. Qed.
Print Assumptions C06_window.
Theorem C06_sid_only_inside_window : forall pt now i0, unpack pt now = UWindow i0 -> i_sid i0 = 0.
Proof. exact sid_only_inside_window. Qed.

(* The client sends whole seconds.  A clock offset in [-179 s, +180 s) is always inside the window;
   an offset in (-180 s, -179 s) need not be. *)
Theorem C06_offset_suffices : forall c_now s_now, (0 <= c_now)%Z -> (c_now / 1000000000 < 2 ^ 62)%Z ->
  (- (179 * 1000000000) <= c_now - s_now < 180 * 1000000000)%Z ->
  in_window (client_ts c_now) s_now = true.
Proof. exact offset_suffices. Qed.
Theorem C06_truncation_edge :
  let c_now := 1700000000900000000%Z in let s_now := (c_now + 179500000000)%Z in
  (Z.abs (c_now - s_now) < 180 * 1000000000)%Z /\ in_window (client_ts c_now) s_now = false.
Proof. exact truncation_edge. Qed.

(* The client's fixed offsets into the first record hit the ServerHello random and key share for a
   32-byte session id, and these reassemble exactly nonce ++ encrypted session key. *)
Theorem C06_reply_offsets : forall sid nonce encKey filler pad,
  length sid = 32%nat -> length nonce = 12%nat -> length encKey = 48%nat ->
  let buf := compose_server_hello sid nonce encKey filler ++ pad in
  let encrypted := sub 6 38 buf ++ sub 84 116 buf in
  sub 0 12 encrypted = nonce /\ sub 12 60 encrypted = encKey.
Proof. exact reply_offsets. Qed.
Print Assumptions C06_reply_offsets.

(* Agreement, direct transport: for every Diffie-Hellman function that commutes, every AEAD that
   round-trips, every well-formed skeleton, every in-domain configuration, every pair of clocks inside
   the window, every ephemeral and static key for which the client's X25519 succeeds, every session key,
   nonce, filler and certificate the server may draw: the server recovers exactly the client's
   (UID, method, encryption method, session id, flag) and the client recovers exactly the session key. *)
Theorem C06_agreement_tls :
  forall (dh : list N -> list N -> option (list N)) (pub : list N -> list N)
         (seal : list N -> list N -> list N -> list N -> list N)
         (open : list N -> list N -> list N -> list N -> option (list N)),
  (forall a b, dh a (pub b) = dh b (pub a)) ->                          (* dh_comm *)
  (forall a, length (pub a) = 32%nat) ->
  (forall k n p a, open k n (seal k n p a) a = Some p) ->
  (forall k n p a, length (seal k n p a) = (length p + 16)%nat) ->
  forall sk i c_now s_now ephPv staticPv secret key nonce filler cert,
  wf_skeleton sk = true ->
  info_in_domain i -> in_window (client_ts c_now) s_now = true ->
  dh ephPv (pub staticPv) = Some secret ->
  length key = 32%nat -> length nonce = 12%nat -> (length cert <= 1024)%nat ->
  exists hello shared sid,
    client_first_packet_tls dh pub seal sk i (client_ts c_now) ephPv (pub staticPv) = Some (hello, shared) /\
    server_process_tls dh open hello staticPv s_now = Accept i shared sid /\
    client_finish_tls open shared (server_reply_tls seal shared sid key nonce filler cert) = Some key.
Proof. exact agreement_tls. Qed.
Print Assumptions C06_agreement_tls.

(* The same for ANY ClientHello in which the grammar locates the three fields (uTLS is a black box:
   whatever it builds, if the fields are found the handshake agrees). *)
Theorem C06_agreement_tls_located :
  forall (dh : list N -> list N -> option (list N)) (pub : list N -> list N)
         (seal : list N -> list N -> list N -> list N -> list N)
         (open : list N -> list N -> list N -> list N -> option (list N)),
  (forall a b, dh a (pub b) = dh b (pub a)) ->
  (forall a, length (pub a) = 32%nat) ->
  (forall k n p a, open k n (seal k n p a) a = Some p) ->
  (forall k n p a, length (seal k n p a) = (length p + 16)%nat) ->
  forall i ts s_now ephPv staticPv secret hello key nonce filler cert,
  info_in_domain i -> ts < 2 ^ 64 -> in_window ts s_now = true ->
  dh ephPv (pub staticPv) = Some secret ->
  length key = 32%nat -> length nonce = 12%nat -> (length cert <= 1024)%nat ->
  let shared := fit 32 secret in
  let ct := seal shared (firstn 12 (pub ephPv)) (pack i ts) [] in
  locate_fields hello = Some (pub ephPv, sub 0 32 ct, sub 32 64 ct) ->
  server_process_tls dh open hello staticPv s_now = Accept i shared (sub 0 32 ct) /\
  client_finish_tls open shared (server_reply_tls seal shared (sub 0 32 ct) key nonce filler cert) = Some key.
Proof. exact agreement_tls_located. Qed.
Print Assumptions C06_agreement_tls_located.

(* Agreement, CDN transport (from the `hidden` header to the 60-byte message). *)
Theorem C06_agreement_ws :
  forall (dh : list N -> list N -> option (list N)) (pub : list N -> list N)
         (seal : list N -> list N -> list N -> list N -> list N)
         (open : list N -> list N -> list N -> list N -> option (list N)),
  (forall a b, dh a (pub b) = dh b (pub a)) ->                          (* dh_comm *)
  (forall a, length (pub a) = 32%nat) ->
  (forall k n p a, open k n (seal k n p a) a = Some p) ->
  (forall k n p a, length (seal k n p a) = (length p + 16)%nat) ->
  (forall a, wf_bytes (pub a)) -> (forall k n p a, wf_bytes (seal k n p a)) ->   (* base64 carries bytes *)
  forall i c_now s_now ephPv staticPv secret key nonce,
  info_in_domain i -> in_window (client_ts c_now) s_now = true ->
  dh ephPv (pub staticPv) = Some secret ->
  length key = 32%nat -> length nonce = 12%nat ->
  exists hidden shared,
    client_first_packet_ws dh pub seal i (client_ts c_now) ephPv (pub staticPv) = Some (hidden, shared) /\
    server_process_ws dh open hidden staticPv s_now = Accept i shared [] /\
    client_finish_ws open shared (server_reply_ws seal shared key nonce) = Some key.
Proof. exact agreement_ws. Qed.
Print Assumptions C06_agreement_ws.

(* With the Gallina AES-GCM the AEAD hypotheses are theorems; dh_comm remains. *)
Theorem C06_agreement_tls_gcm : forall dh pub,
  (forall a b, dh a (pub b) = dh b (pub a)) -> (forall a, length (pub a) = 32%nat) ->
  forall sk i c_now s_now ephPv staticPv secret key nonce filler cert,
  wf_skeleton sk = true ->
  info_in_domain i -> in_window (client_ts c_now) s_now = true ->
  dh ephPv (pub staticPv) = Some secret ->
  length key = 32%nat -> length nonce = 12%nat -> (length cert <= 1024)%nat ->
  exists hello shared sid,
    client_first_packet_tls dh pub gcm_seal sk i (client_ts c_now) ephPv (pub staticPv) = Some (hello, shared) /\
    server_process_tls dh gcm_open hello staticPv s_now = Accept i shared sid /\
    client_finish_tls gcm_open shared (server_reply_tls gcm_seal shared sid key nonce filler cert) = Some key.
Proof.
  intros dh pub Hc Hl.
  exact (agreement_tls dh pub gcm_seal gcm_open Hc Hl (proj1 gcm_is_aead) (proj2 gcm_is_aead)).
Qed.
Print Assumptions C06_agreement_tls_gcm.

(* The four hypotheses of the direct-transport agreement are satisfiable (the two byte-ness hypotheses that
   C06_agreement_ws adds are not covered), the skeleton and domain premises are met by concrete values. *)
Theorem C06_hypotheses_inhabited :
  (forall a b, toy_dh a (toy_pub b) = toy_dh b (toy_pub a)) /\
  (forall a, length (toy_pub a) = 32%nat) /\
  (forall k n p a, toy_open k n (toy_seal k n p a) a = Some p) /\
  (forall k n p a, length (toy_seal k n p a) = (length p + 16)%nat).
Proof. exact agreement_hypotheses_inhabited. Qed.
Theorem C06_premises_inhabited :
  (wf_skeleton ex_skeleton = true /\
   wf_client_hello ex_name (mk_client_hello ex_skeleton (repeat 1 32) (repeat 2 32) (repeat 3 32)) = true) /\
  info_in_domain (mkInfo ex_uid [115;115] 1 (2 ^ 32 - 1) true).
Proof. exact (conj ex_skeleton_wf ex_info_in_domain). Qed.

(* Generated obligations: the two UNORDERED_FLAG constants (client / server package) agree on bit 0,
   the tolerance is 180 s. *)
Theorem C06_flag_constants :
  negb (N.land (N.lor 0 client_flag) server_flag =? 0) = true /\ negb (N.land 0 server_flag =? 0) = false.
Proof. exact flag_constants_agree. Qed.
Theorem C06_tolerance : tolerance = (180 * 1000000000)%Z.
Proof. exact tolerance_is_180s. Qed.

(* ------------------------------------------------------------------------------------------------------
   Every connection of a session, not only the first.  A client with NumConn >= 2 (or reconnecting) presents the same
   (UID, session id) several times; each connection draws its own ephemeral key, nonce, ... and the server draws a
   fresh session key for each BEFORE looking the session up.  Model/SessionKey.v: the reply carries the key of the
   session the connection joined (serve_keys / table_after follow dispatcher.go + ActiveUser.GetSession). *)
Theorem C06_same_session_same_key : forall conns t i j sid f1 f2, (i <= j)%nat ->
  nth_error conns i = Some (sid, f1) -> nth_error conns j = Some (sid, f2) ->
  nth_error (serve_keys t conns) i = nth_error (serve_keys t conns) j /\
  exists k, nth_error (serve_keys t conns) j = Some k /\ tbl_get sid (table_after t conns) = Some k.
Proof. intros conns t i j sid f1 f2 _. exact (same_session_same_key conns t i j sid f1 f2). Qed.
Print Assumptions C06_same_session_same_key.

Theorem C06_new_session_fresh_key : forall t sid fresh rest, tbl_get sid t = None ->
  nth_error (serve_keys t ((sid, fresh) :: rest)) 0 = Some fresh.
Proof. exact new_session_fresh_key. Qed.
Print Assumptions C06_new_session_fresh_key.

(* Agreement for every connection of every session of a user (direct transport): the j-th connection's client obtains
   exactly the key the server's session table holds for its session id, first connection or not. *)
Theorem C06_agreement_every_connection_tls :
  forall (dh : list N -> list N -> option (list N)) (pub : list N -> list N)
         (seal : list N -> list N -> list N -> list N -> list N)
         (open : list N -> list N -> list N -> list N -> option (list N)),
  (forall a b, dh a (pub b) = dh b (pub a)) ->
  (forall a, length (pub a) = 32%nat) ->
  (forall k n p a, open k n (seal k n p a) a = Some p) ->
  (forall k n p a, length (seal k n p a) = (length p + 16)%nat) ->
  forall staticPv (conns : list conn),
  Forall (conn_ok dh pub staticPv) conns ->
  let keys := serve_keys [] (map (fun c => (i_sid (c_info c), c_fresh c)) conns) in
  let table := table_after [] (map (fun c => (i_sid (c_info c), c_fresh c)) conns) in
  forall j c, nth_error conns j = Some c ->
  exists key hello shared sid,
    nth_error keys j = Some key /\ tbl_get (i_sid (c_info c)) table = Some key /\
    client_first_packet_tls dh pub seal (c_sk c) (c_info c) (client_ts (c_cnow c)) (c_ephPv c) (pub staticPv) = Some (hello, shared) /\
    server_process_tls dh open hello staticPv (c_snow c) = Accept (c_info c) shared sid /\
    client_finish_tls open shared (server_reply_tls seal shared sid key (c_nonce c) (c_filler c) (c_cert c)) = Some key.
Proof. exact agreement_every_connection_tls. Qed.
Print Assumptions C06_agreement_every_connection_tls.

Theorem C06_connections_of_a_session_share_the_key : forall (conns : list conn) i j ci cj, (i <= j)%nat ->
  nth_error conns i = Some ci -> nth_error conns j = Some cj -> i_sid (c_info ci) = i_sid (c_info cj) ->
  let keys := serve_keys [] (map (fun c => (i_sid (c_info c), c_fresh c)) conns) in
  nth_error keys i = nth_error keys j.
Proof. intros conns i j ci cj _. exact (connections_of_a_session_share_the_key conns i j ci cj). Qed.
Print Assumptions C06_connections_of_a_session_share_the_key.

(* ---------------------------------------------------------------------------------------------
   The client side of session establishment: client.MakeSession (internal/client/connector.go),
   Model/Connector.v.  The network is an input: per goroutine a script of attempt outcomes. *)
From Cloak Require Import Model.Connector Proofs.Connector.
Local Open Scope nat_scope.

(* A goroutine whose attempts fail any number of times, in any way, and then succeed with key k ends with
   exactly that key and hands over exactly ONE connection; it paused 3 s once per failure, dialled once per
   attempt, and closed the transport of every failed handshake and of nothing else. *)
Theorem C06_connector_one_connection_per_goroutine : forall pre direct b k rest,
  forallb is_fail pre = true ->
  let '(evs, r) := conn_loop direct b (pre ++ AOk k :: rest) in
  r = Some k /\ count_ev is_deliver evs = 1 /\ count_ev is_sleep evs = length pre /\
  count_ev is_dial evs = S (length pre) /\ count_ev is_close evs = length (filter is_hsfail pre).
Proof. exact conn_loop_spec. Qed.
Print Assumptions C06_connector_one_connection_per_goroutine.

(* The browser signature a goroutine presents is the configured one or its fallback, nothing else; the
   fallback (chrome -> firefox, direct transport only) is taken only after a failed handshake: while only
   dials have failed, every attempt carries the configured signature. *)
Theorem C06_connector_signatures : forall s direct b b',
  In b' (creates (fst (conn_loop direct b s))) -> b' = b \/ b' = fallback direct b.
Proof. intros s direct b b'. exact (conn_loop_signatures s direct b b'). Qed.
Print Assumptions C06_connector_signatures.

Theorem C06_connector_configured_signature_until_a_handshake_fails : forall pre direct b s,
  forallb is_dialfail pre = true ->
  firstn (length pre) (creates (fst (conn_loop direct b (pre ++ s)))) = repeat b (length pre).
Proof. exact conn_loop_before_first_hsfail. Qed.
Print Assumptions C06_connector_configured_signature_until_a_handshake_fails.

(* MakeSession returns only when every goroutine has its connection; the session is given exactly one
   connection per goroutine; and its key is one a successful handshake returned - whichever goroutine
   finished last - so when the server gives every connection of the session the same key
   (C06_same_session_same_key), the client's session is built from that key. *)
Theorem C06_connector_session : forall direct b scripts order key n,
  make_session direct b scripts order = Some (key, n) ->
  n = length scripts /\
  (forall s, In s scripts -> exists k, snd (conn_loop direct b s) = Some k) /\
  (last order 0 < length scripts -> exists s, In s scripts /\ snd (conn_loop direct b s) = Some key).
Proof. exact make_session_spec. Qed.
Print Assumptions C06_connector_session.

Theorem C06_connector_session_key_is_the_servers : forall direct b scripts order key n K,
  make_session direct b scripts order = Some (key, n) -> last order 0 < length scripts ->
  (forall s k, In s scripts -> snd (conn_loop direct b s) = Some k -> k = K) -> key = K.
Proof.
  intros direct b scripts order key n K H Hlt Hall. destruct (make_session_spec _ _ _ _ _ _ H) as (_ & _ & Hk).
  destruct (Hk Hlt) as (s & Hin & Hs). exact (Hall s key Hin Hs).
Qed.
Print Assumptions C06_connector_session_key_is_the_servers.
