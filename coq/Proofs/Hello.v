(* Proofs about Model/Hello.v: the hand-written parsers, unmarshalClientHello / unmarshalHidden and the two
   processFirstPacket never return a panic, and their loops end within the model's fuel (so the fuel never cuts a
   Go loop short). *)
From Coq Require Import NArith ZArith List Bool Arith Lia.
From Coq Require Import ZifyN ZifyNat ZifyBool.
From Cloak Require Import Model.Hello Proofs.ListFacts.
Import ListNotations.
Local Open Scope N_scope.

Lemma bytes_eqb_iff : forall a b, bytes_eqb a b = true <-> a = b.
Proof.
  induction a as [|x a IH]; destruct b as [|y b]; cbn [bytes_eqb]; try (split; discriminate); [tauto|].
  rewrite andb_true_iff, N.eqb_eq, IH. split; [intros [-> ->]; reflexivity | intros E; inversion E; auto].
Qed.

Lemma be_val_2 : forall hi lo, be_val [hi; lo] = hi * 256 + lo.
Proof. intros. unfold be_val. cbn [fold_left]. lia. Qed.
Lemma be_val_3 : forall b2 b1 b0, be_val [b2; b1; b0] = b2 * 65536 + b1 * 256 + b0.
Proof. intros. unfold be_val. cbn [fold_left]. lia. Qed.

Lemma take_ok : forall n rest a b, take n rest = Ok (a, b) -> rest = a ++ b /\ length a = n.
Proof.
  intros n rest a b H. unfold take in H. destruct (n <=? length rest)%nat eqn:E; [|discriminate].
  apply Nat.leb_le in E. inversion H; subst. rewrite firstn_skipn. split; auto. apply firstn_length_le. lia.
Qed.
Lemma take_enough : forall n rest, (n <= length rest)%nat -> take n rest = Ok (firstn n rest, skipn n rest).
Proof. intros n rest H. unfold take. apply Nat.leb_le in H. rewrite H. reflexivity. Qed.

(* what is shown of every parser: no panic gets out, and the model's fuel is never what stops a loop *)
Definition safe {A} (r : res A) : Prop := r <> Panic /\ r <> Err EFuel.

Lemma safe_bind : forall A B (r : res A) (f : A -> res B),
  safe r -> (forall a, r = Ok a -> safe (f a)) -> safe (bind r f).
Proof. intros A B [a|e|] f [Hp Hf] H; cbn [bind]; [apply H; reflexivity | split; congruence | congruence]. Qed.

Lemma safe_recovered : forall A e (r : res A), e <> EFuel -> r <> Err EFuel -> safe (recover_as e r).
Proof. intros A e [a|e'|] He Hr; split; cbn; congruence. Qed.

Lemma copy_into_length : forall n src, length (copy_into n src) = n.
Proof.
  intros n src. unfold copy_into. rewrite firstn_length, app_length, repeat_length. lia.
Qed.
Lemma copy_into_exact : forall n l, length l = n -> copy_into n l = l.
Proof. intros n l H. apply firstn_app_exact, H. Qed.

Lemma pe_loop_fuel : forall fuel rest acc, (length rest < fuel)%nat -> pe_loop fuel rest acc <> Err EFuel.
Proof.
  induction fuel as [|fuel IH]; intros rest acc Hlt; [lia|].
  cbn [pe_loop]. destruct rest as [|b rest']; [discriminate|].
  remember (b :: rest') as rest eqn:Hrest.
  destruct (take 2 rest) as [[typ r1]|e|] eqn:T1; cbn [bind]; try discriminate.
  destruct (take 2 r1) as [[lenb r2]|e|] eqn:T2; cbn [bind]; try discriminate.
  destruct (take (N.to_nat (be_val lenb)) r2) as [[data r3]|e|] eqn:T3; cbn [bind]; try discriminate.
  - apply take_ok in T1 as [E1 L1]. apply take_ok in T2 as [E2 L2]. apply take_ok in T3 as [E3 L3].
    apply IH. rewrite E1, E2, E3, !app_length in Hlt. lia.
  - unfold take in T3. destruct (_ <=? _)%nat; discriminate.
  - unfold take in T2. destruct (_ <=? _)%nat; discriminate.
  - unfold take in T1. destruct (_ <=? _)%nat; discriminate.
Qed.

Lemma parseExtensions_total : forall input, safe (parseExtensions input).
Proof. intros input. apply safe_recovered; [discriminate|]. apply pe_loop_fuel. lia. Qed.

(* a slice expression panics or yields the slice; it never runs out of fuel *)
Lemma gs_sub_cases : forall lo hi s, gs_sub lo hi s = Panic \/
  exists g, gs_sub lo hi s = Ok g /\ (hi <= gs_cap s)%nat /\ length (vis g) = (hi - lo)%nat.
Proof.
  intros. unfold gs_sub. destruct (lo <=? hi)%nat; [|auto].
  destruct (Nat.leb_spec hi (gs_cap s)); cbn [andb]; [right | auto].
  eexists. split; [reflexivity|]. split; [assumption|]. cbn [vis]. rewrite firstn_length, skipn_length. unfold gs_cap in *. lia.
Qed.

Lemma pks_loop_fuel : forall fuel totalLen pointer input,
  (pointer <= gs_cap input)%nat -> (gs_cap input < fuel + pointer)%nat ->
  pks_loop fuel totalLen pointer input <> Err EFuel.
Proof.
  induction fuel as [|fuel IH]; intros totalLen pointer input Hle Hlt; [lia|].
  cbn [pks_loop].
  destruct (pointer <? totalLen)%nat; [|discriminate].
  destruct (gs_sub_cases pointer (pointer + 2) input) as [->|(g & -> & _)]; cbn [bind]; [discriminate|].
  destruct (gs_sub_cases (pointer + 2) (pointer + 4) input) as [E|(lb & E & _)];
    destruct (bytes_eqb _ _); rewrite E; cbn [bind]; try discriminate; generalize (N.to_nat (be_val (vis lb))); intros len.
  - destruct (negb _); [discriminate|].
    destruct (gs_sub_cases (pointer + 4) (pointer + 4 + len) input) as [->|(ks & -> & _)]; discriminate.
  - destruct (gs_sub_cases (pointer + 4) (pointer + 4 + len) input) as [->|(x & -> & Hcap & _)]; cbn [bind]; [discriminate|].
    apply IH; lia.
Qed.

Lemma parseKeyShare_total : forall input, safe (parseKeyShare input).
Proof.
  intros input. apply safe_recovered; [discriminate|]. unfold parseKeyShare_raw.
  destruct (gs_sub_cases 0 2 input) as [->|(t & -> & Hcap & _)]; cbn [bind]; [discriminate|].
  apply pks_loop_fuel; lia.
Qed.

Lemma pks_loop_len : forall fuel totalLen pointer input ks,
  pks_loop fuel totalLen pointer input = Ok ks -> length ks = 32%nat.
Proof.
  induction fuel as [|fuel IH]; intros totalLen pointer input ks H; [discriminate|].
  cbn [pks_loop] in H.
  destruct (pointer <? totalLen)%nat; [|discriminate].
  destruct (gs_sub pointer (pointer + 2) input) as [g|e|] eqn:G1; cbn [bind] in H; try discriminate.
  destruct (bytes_eqb [0; 0x1d] (vis g)).
  - destruct (gs_sub (pointer + 2) (pointer + 4) input) as [lb|e|] eqn:G2; cbn [bind] in H; try discriminate.
    destruct (N.to_nat (be_val (vis lb)) =? 32)%nat eqn:E32; cbn [negb] in H; [|discriminate].
    apply Nat.eqb_eq in E32. rewrite E32 in H.
    destruct (gs_sub_cases (pointer + 4) (pointer + 4 + 32) input) as [E|(k & E & _ & L)]; rewrite E in H; [discriminate|].
    inversion H; subst. rewrite L. lia.
  - destruct (gs_sub (pointer + 2) (pointer + 4) input) as [lb|e|] eqn:G2; cbn [bind] in H; try discriminate.
    destruct (gs_sub (pointer + 4) (pointer + 4 + N.to_nat (be_val (vis lb))) input) as [x|e|] eqn:G3;
      cbn [bind] in H; try discriminate.
    eapply IH; eauto.
Qed.

Lemma bind_nofuel : forall A B (r : res A) (f : A -> res B),
  r <> Err EFuel -> (forall a, r = Ok a -> f a <> Err EFuel) -> bind r f <> Err EFuel.
Proof. intros A B [a|e|] f H1 H2; cbn; [apply H2; reflexivity | intros E; apply H1; congruence | discriminate]. Qed.
Lemma take_nofuel : forall n r, take n r <> Err EFuel.
Proof. intros. unfold take. destruct (_ <=? _)%nat; discriminate. Qed.
Lemma take1_nofuel : forall r, take1 r <> Err EFuel.
Proof. intros [|b r]; discriminate. Qed.

Lemma parseClientHello_total : forall data, safe (parseClientHello data).
Proof.
  intros data. apply safe_recovered; [discriminate|]. unfold parseClientHello_raw.
  (* every step is a take / take1, which never runs out of fuel, or an `if` whose other branch is an error
     constant: the only place left for EFuel is the final parseExtensions *)
  repeat first
    [ apply bind_nofuel; [ first [apply take_nofuel | apply take1_nofuel] | intros [? ?] _; cbv beta iota ]
    | match goal with |- (if ?c then _ else _) <> _ => destruct c; [discriminate|] end ].
  apply bind_nofuel; [apply parseExtensions_total | intros; discriminate].
Qed.

Lemma bind_ok : forall A B (r : res A) (f : A -> res B) b, bind r f = Ok b -> exists a, r = Ok a /\ f a = Ok b.
Proof. intros A B [a|e|] f b H; cbn in H; try discriminate. eauto. Qed.
Lemma recover_ok : forall A e (r : res A) a, recover_as e r = Ok a -> r = Ok a.
Proof. intros A e [x|e'|] a H; cbn in H; try discriminate. exact H. Qed.

Lemma parseClientHello_random : forall data ch, parseClientHello data = Ok ch -> length (ch_random ch) = 32%nat.
Proof.
  intros data ch H. unfold parseClientHello in H. apply recover_ok in H. unfold parseClientHello_raw in H.
  (* a successful run went through every bind and took the non-error branch of every `if`: peel them off in order *)
  repeat first
    [ match type of H with
      | bind _ _ = Ok _ => let T := fresh "T" in apply bind_ok in H as ([? ?] & T & H); cbv beta iota in H
      | (if ?c then _ else _) = Ok _ => destruct c; [discriminate|]
      end ].
  apply bind_ok in H as (exts & Tx & H). inversion H; subst; cbn [ch_random].
  match goal with T : take 32 _ = Ok (?x, _) |- length ?x = _ => apply take_ok in T as [_ L]; exact L end.
Qed.

Section WithDH.
  Variable dh : list N -> list N -> option (list N).

  Lemma unmarshalClientHello_total : forall ch pv, safe (unmarshalClientHello dh ch pv).
  Proof.
    intros ch pv. unfold unmarshalClientHello.
    destruct (negb _); [split; discriminate|].
    destruct (dh pv _); [|split; discriminate].
    apply safe_bind; [apply parseKeyShare_total|]. intros ks _. destruct (negb _); split; discriminate.
  Qed.

  Lemma tls_first_packet_total : forall data pv, safe (tls_first_packet dh data pv).
  Proof.
    intros data pv. apply safe_bind; [apply parseClientHello_total | intros; apply unmarshalClientHello_total].
  Qed.

  Lemma unmarshalHidden_total : forall hidden pv, safe (unmarshalHidden dh hidden pv).
  Proof.
    intros hidden pv. unfold unmarshalHidden.
    destruct (length hidden <? 96)%nat eqn:E; [split; discriminate|].
    apply Nat.ltb_ge in E.
    rewrite take_enough by lia. cbn [bind].
    destruct (negb _); [split; discriminate|].
    destruct (dh pv _); [|split; discriminate].
    destruct (negb _); split; discriminate.
  Qed.

  Lemma ws_first_packet_total : forall h pv, safe (ws_first_packet dh h pv).
  Proof. intros [h|] pv; cbn; [apply unmarshalHidden_total | split; discriminate]. Qed.

  (* shape of the fragments: 32-byte ephemeral value, 64-byte sealed block, secret = X25519(static, ephemeral) *)
  Definition frag_shape (pv : list N) (fr : fragments) : Prop :=
    length (f_rand fr) = 32%nat /\ length (f_ct fr) = 64%nat /\ length (f_shared fr) = 32%nat /\
    exists sh, dh pv (f_rand fr) = Some sh /\ f_shared fr = copy_into 32 sh.

  Lemma mkFrag_shape : forall pv r sh c, dh pv (copy_into 32 r) = Some sh ->
    frag_shape pv (mkFrag (copy_into 32 sh) (copy_into 32 r) (copy_into 64 c)).
  Proof. intros pv r sh c E. unfold frag_shape. cbn [f_rand f_ct f_shared]. rewrite !copy_into_length. eauto 6. Qed.

  Lemma tls_fragments_shape : forall data pv fr, tls_first_packet dh data pv = Ok fr -> frag_shape pv fr.
  Proof.
    intros data pv fr H. unfold tls_first_packet in H.
    destruct (parseClientHello data) as [ch|e|]; cbn [bind] in H; try discriminate.
    unfold unmarshalClientHello in H.
    destruct (negb _); [discriminate|].
    destruct (dh pv (copy_into 32 (ch_random ch))) as [sh|] eqn:Edh; [|discriminate].
    destruct (parseKeyShare _) as [ks|e|]; cbn [bind] in H; try discriminate.
    destruct (negb _); [discriminate|]. inversion H. apply mkFrag_shape. exact Edh.
  Qed.
  Lemma ws_fragments_shape : forall h pv fr, ws_first_packet dh h pv = Ok fr -> frag_shape pv fr.
  Proof.
    intros [h|] pv fr H; cbn in H; [|discriminate]. unfold unmarshalHidden in H.
    destruct (length h <? 96)%nat; [discriminate|].
    destruct (take 32 h) as [[r rest]|e|]; cbn [bind] in H; try discriminate.
    destruct (negb _); [discriminate|].
    destruct (dh pv (copy_into 32 r)) as [sh|] eqn:Edh; [|discriminate].
    destruct (negb _); [discriminate|]. inversion H. apply mkFrag_shape. exact Edh.
  Qed.
End WithDH.
