(* C17 - User bookkeeping never deadlocks and never loses track of a live session.
   Only the property theorems, each proved in a line from the lemmas of Proofs/LockOrder.v, PanelLocks.v,
   PanelOwn.v, PanelRefute.v and PanelSplit.v. *)
From Coq Require Import ZArith NArith List String.
From Cloak Require Import Gen.LockGraph Gen.Guards Model.Panel.
From Cloak Require Import Proofs.LockOrder Proofs.PanelLocks Proofs.PanelWF Proofs.PanelOwn Proofs.PanelRefute.
From Cloak Require Model.PanelSplit Proofs.PanelSplit.
Import ListNotations.

(* ---- generated obligations (re-proved on every run about the freshly generated terms) ---- *)

(* lockscan understood every construct, and neither package's "B requested while A held"
   relation has a cycle *)
Theorem C17_lock_graph_acyclic :
  lockscan_errors = [] /\ acyclic server_lock_edges /\ acyclic multiplex_lock_edges.
Proof. exact (conj lockscan_understood_everything (conj server_lock_graph_acyclic multiplex_lock_graph_acyclic)). Qed.
Print Assumptions C17_lock_graph_acyclic.

(* every edge of the code goes upwards in the order the hand model uses
   (usageUpdateQueueM < activeUsersM < sessionsM) *)
Theorem C17_model_order_is_code_order :
  forall a b, In (a, b) server_lock_edges -> model_rank a < model_rank b.
Proof. exact server_edges_follow_model_order. Qed.
Print Assumptions C17_model_order_is_code_order.

Theorem sessions_guarded_by_sessionsM : guarded "ActiveUser.sessions" "ActiveUser.sessionsM".
Proof. exact sessions_guarded. Qed.
Print Assumptions sessions_guarded_by_sessionsM.
Theorem queue_guarded_by_queueM : guarded "userPanel.usageUpdateQueue" "userPanel.usageUpdateQueueM".
Proof. exact queue_guarded. Qed.
Print Assumptions queue_guarded_by_queueM.
Theorem activeUsers_guarded : guarded "userPanel.activeUsers" "userPanel.activeUsersM".
Proof. exact activeUsers_map_guarded. Qed.
Print Assumptions activeUsers_guarded.

(* ---- the hand model ---- *)

(* With the lock order of the code as it is now: in every reachable state of any number of
   threads running dispatch / CloseSession / TerminateActiveUser / updateUsageQueue /
   commitUpdate in any interleaving (with traffic, session failures, admin changes, time), if
   some thread is unfinished then some thread can take a step. *)
Theorem C17_deadlock_free :
  forall c, prefix_order c = false ->
  forall d nw s, reachable c d nw s ->
  (exists t, t < nthr s /\ thr s t <> Done) ->
  exists t ch s', t < nthr s /\ step c s (Run t ch) = Some s'.
Proof. exact deadlock_free. Qed.
Print Assumptions C17_deadlock_free.

(* With the acquisition order updateUsageQueue had before 1937ea8 (model parameter): T1 takes
   activeUsersM; T2 takes usageUpdateQueueM; T1 requests usageUpdateQueueM; T2 requests
   activeUsersM.RLock - reachable, and nobody can ever move again. *)
Theorem C17_refuted_prefix_deadlock :
  exists s, reachable cfg_prefix db1 10 s /\ stuck cfg_prefix s
  /\ thr s 2 = U1 false /\ thr s 3 = M1 [1%N] [] /\ rw_w (lkA s) = Some 2 /\ lkQ s = Some 3.
Proof. exact prefix_deadlock. Qed.
Print Assumptions C17_refuted_prefix_deadlock.

(* the hypothesis of C17_deadlock_free is met by the model of the current code, and that
   model does reach states with unfinished threads (the same schedule as above) *)
Example C17_deadlock_free_applies :
  prefix_order cfg_now = false /\ run_stuck_check cfg_now db1 10 deadlock_trace = false.
Proof. exact (conj eq_refl fixed_order_same_schedule_runs). Qed.

(* Ownership: at quiescence every live session of a limited user is in the session table of
   the record stored in activeUsers[uid], and a record the panel has forgotten has no live
   session. *)
Definition C17_ownership (c : cfg) : Prop :=
  forall d nw s, reachable c d nw s -> quiescent s -> owned s /\ terminated_dead s.

(* FALSE of the code as it is (finding F5, open): a concrete reachable quiescent state with a
   live session of limited user 1 in record 0, which activeUsers no longer holds, while
   activeUsers[1] is a second record (second valve) with its own live session. *)
Theorem C17_refuted_orphan :
  ~ C17_ownership cfg_now /\
  exists s, reachable cfg_now db1 10 s /\ quiescent s
  /\ nrec s = 2 /\ r_uid (recs s 0) = 1%N /\ r_uid (recs s 1) = 1%N /\ r_bypass (recs s 0) = false
  /\ s_owner (sess s 1) = 0 /\ s_closed (sess s 1) = false
  /\ s_owner (sess s 2) = 1 /\ s_closed (sess s 2) = false
  /\ table s 1%N = Some 1 /\ ~ owned s.
Proof. exact (conj ownership_refuted orphan_state). Qed.
Print Assumptions C17_refuted_orphan.

(* TRUE of the model with the proposed repair (repo_patches/F5_orphan_session.diff), for both
   lock orders, all interleavings, all databases. *)
Theorem C17_ownership_patched : forall c, patched c = true -> C17_ownership c.
Proof. exact ownership_patched. Qed.
Print Assumptions C17_ownership_patched.

(* what does hold of the code as it is, in every reachable state (quiescent or not) *)
Theorem C17_ownership_partial : forall c d nw s k, reachable c d nw s ->
  k < nses s -> s_closed (sess s k) = false ->
  let r := s_owner (sess s k) in
  r < nrec s /\ slook (s_sid (sess s k)) (r_sess (recs s r)) = Some k
  /\ (table s (r_uid (recs s r)) = Some r \/
      (table s (r_uid (recs s r)) <> Some r /\ ~ owned s \/ r_bypass (recs s r) = true)).
Proof. exact ownership_partial. Qed.
Print Assumptions C17_ownership_partial.

(* ---- what holding activeUsersM across GetUser buys (Model/PanelSplit.v) ----

   GetUser split into  lock / lookup / Manager.AuthenticateUser / insert, any number of calls in any
   interleaving, the user database answering whatever it likes whenever it likes.  With the lock kept
   from the lookup to the insertion (the code as it is; the generated obligation
   GetUser_lookup_authenticate_insert_one_step of Proofs/AtomPanel.v says so about the source) every
   run is a run of the ATOMIC GetUser - step D1 of the hand model - in the order in which the calls
   released the lock: same table, same number of records (= valves) created, same results. *)
Theorem C17_getuser_split_refines_atomic : forall thr sched s,
  PanelSplit.all_start thr -> PanelSplit.grun true (PanelSplit.g_init thr) sched = Some s ->
  exists tb, PanelSplit.replay_atomic (fun _ => None) 0 (PanelSplit.g_log s) = (tb, PanelSplit.g_nrec s, true)
             /\ forall u, tb u = PanelSplit.g_table s u.
Proof. exact (fun thr sched s Ha Hr => PanelSplit.gi_log s (PanelSplit.ginv_run thr sched s Ha Hr)). Qed.
Print Assumptions C17_getuser_split_refines_atomic.

(* hence: two calls for one UID that returned a record returned THE SAME record, the one the panel
   holds (one record, one valve per UID: also what C19 needs) *)
Theorem C17_one_record_per_uid : forall thr sched s t1 t2 u r1 r2,
  PanelSplit.all_start thr -> PanelSplit.grun true (PanelSplit.g_init thr) sched = Some s ->
  PanelSplit.gget s t1 = PanelSplit.GDone u (Some r1) -> PanelSplit.gget s t2 = PanelSplit.GDone u (Some r2) ->
  r1 = r2 /\ PanelSplit.g_table s u = Some r1.
Proof. exact PanelSplit.split_one_record. Qed.
Print Assumptions C17_one_record_per_uid.

(* and a caller that arrives while another is between its lookup and its insertion cannot move: what
   the harness observes as "waiting for a lock until the first is released" *)
Theorem C17_second_caller_waits : forall thr sched s t t' u ok,
  PanelSplit.all_start thr -> PanelSplit.grun true (PanelSplit.g_init thr) sched = Some s ->
  PanelSplit.holder (PanelSplit.gget s t) = true -> PanelSplit.gget s t' = PanelSplit.GStart u ->
  PanelSplit.gstep true s t' ok = None.
Proof. exact PanelSplit.split_second_caller_blocked. Qed.
Print Assumptions C17_second_caller_waits.

(* the hypotheses are met: a second caller arrives while the first is inside AuthenticateUser *)
Example C17_getuser_split_inhabited :
  exists s, PanelSplit.grun true (PanelSplit.g_init [PanelSplit.GStart 1%N; PanelSplit.GStart 1%N]) PanelSplit.held_schedule = Some s
  /\ PanelSplit.gget s 0 = PanelSplit.GDone 1%N (Some 0) /\ PanelSplit.gget s 1 = PanelSplit.GDone 1%N (Some 0)
  /\ PanelSplit.g_nrec s = 1.
Proof. exact PanelSplit.split_held_example. Qed.

(* WITHOUT the lock across the three steps (lookup under the lock, query unlocked, insertion under a
   second acquisition: the seeded changes C17_m2 / C19_m2) both first connections of user 1 look the
   UID up before either inserts: two records, two valves, caller 0 holds a record the panel has
   overwritten, and no order of atomic calls explains the results.  The overlapped scenarios of the
   correspondence (D1.1a D1.2ah g0 g1 g1) are this schedule on the real code. *)
Theorem C17_getuser_unlocked_refuted :
  exists s, PanelSplit.grun false (PanelSplit.g_init [PanelSplit.GStart 1%N; PanelSplit.GStart 1%N]) PanelSplit.unlocked_schedule = Some s
  /\ PanelSplit.gget s 0 = PanelSplit.GDone 1%N (Some 0) /\ PanelSplit.gget s 1 = PanelSplit.GDone 1%N (Some 1)
  /\ PanelSplit.g_table s 1%N = Some 1 /\ PanelSplit.g_nrec s = 2
  /\ (let '(_, _, good) := PanelSplit.replay_atomic (fun _ => None) 0 (PanelSplit.g_log s) in good) = false.
Proof. exact PanelSplit.split_unlocked_two_records. Qed.
Print Assumptions C17_getuser_unlocked_refuted.
