(* C15 - Connections join the right session; the per-user session cap is never exceeded.
   Only the property theorems, each proved in a line or two from the lemmas of Proofs/PanelC15.v and
   PanelRefute.v, the concrete run by evaluation.  The model is Model/Panel.v
   (lookup-or-create of GetSession is ONE atomic step: generated obligation
   sessions_guarded_by_sessionsM, re-proved from the Go source on every run, see C17.v). *)
From Coq Require Import ZArith NArith List Bool Arith.
From Cloak Require Import Gen.Guards Model.Panel.
From Cloak Require Import Proofs.LockOrder Proofs.PanelLocks Proofs.PanelWF Proofs.PanelOwn Proofs.PanelC15 Proofs.PanelRefute.
Import ListNotations.

(* the atomicity assumption of the model, tied to the source *)
(* = guarded "ActiveUser.sessions" "ActiveUser.sessionsM": every access of ActiveUser.sessions in
   internal/server happens with that record's sessionsM held (and there are such accesses) *)
Theorem C15_sessions_guarded_by_sessionsM : ltac:(let T := type of sessions_guarded in exact T).
Proof. exact sessions_guarded. Qed.
Print Assumptions C15_sessions_guarded_by_sessionsM.

(* In every reachable state of every interleaving (any parameter setting):
   - a record's session table is a partial injection between session ids and sessions;
   - every connection that was admitted for (uid, sid) joined a session created by the record it
     resolved, under that sid, for that uid - i.e. it was answered with THAT session's key (the
     key is the session's identity in the model: GetSessionKey of the joined session seals the
     reply) - and while the session is live it is the one stored under (record, sid);
   - hence connections for the same (record, sid) whose sessions are live share one session. *)
Theorem C15_one_session_per_id : forall c d nw s, reachable c d nw s ->
  (forall r sd1 k1 sd2 k2, r < nrec s ->
     In (sd1, k1) (r_sess (recs s r)) -> In (sd2, k2) (r_sess (recs s r)) -> (sd1 = sd2 <-> k1 = k2))
  /\ (forall a, In a (g_log s) ->
        a_rec a < nrec s /\ a_ses a < nses s
        /\ s_owner (sess s (a_ses a)) = a_rec a /\ s_sid (sess s (a_ses a)) = a_sid a
        /\ r_uid (recs s (a_rec a)) = a_uid a
        /\ (s_closed (sess s (a_ses a)) = false ->
            slook (a_sid a) (r_sess (recs s (a_rec a))) = Some (a_ses a)))
  /\ (forall a1 a2, In a1 (g_log s) -> In a2 (g_log s) ->
        a_rec a1 = a_rec a2 -> a_sid a1 = a_sid a2 ->
        s_closed (sess s (a_ses a1)) = false -> s_closed (sess s (a_ses a2)) = false ->
        a_ses a1 = a_ses a2).
Proof.
  exact (fun c d nw s HR => conj (sessions_injective c d nw s HR)
                             (conj (admission_joined c d nw s HR) (same_id_same_session c d nw s HR))).
Qed.
Print Assumptions C15_one_session_per_id.

(* "same UID and session id" instead of "same record and session id" needs the user to have ONE
   record, i.e. C17's ownership (false of the code as it is: F5 / C17_refuted_orphan gives one
   UID two records; true of the repaired model: C17_ownership_patched).  The race is C17's. *)
Theorem C15_same_uid_sid_given_ownership : forall c d nw s, reachable c d nw s -> owned s ->
  forall a1 a2, In a1 (g_log s) -> In a2 (g_log s) ->
  a_uid a1 = a_uid a2 -> a_sid a1 = a_sid a2 ->
  r_bypass (recs s (a_rec a1)) = false -> r_bypass (recs s (a_rec a2)) = false ->
  s_closed (sess s (a_ses a1)) = false -> s_closed (sess s (a_ses a2)) = false ->
  a_ses a1 = a_ses a2.
Proof. exact (fun c d nw s HR Ho a1 a2 => same_uid_sid_same_session c d nw s HR a1 a2 Ho). Qed.
Print Assumptions C15_same_uid_sid_given_ownership.

(* different session ids or different UIDs never share a session *)
Theorem C15_no_sharing : forall c d nw s, reachable c d nw s ->
  forall a1 a2, In a1 (g_log s) -> In a2 (g_log s) ->
  a_ses a1 = a_ses a2 -> a_uid a1 = a_uid a2 /\ a_sid a1 = a_sid a2 /\ a_rec a1 = a_rec a2.
Proof. exact no_sharing. Qed.
Print Assumptions C15_no_sharing.

(* The cap.  In every state reached by any interleaving during which user u's configured cap
   (SessionsCap read back unsigned, as AuthoriseNewSession does) was at most cp, every record of
   the limited user u holds at most cp sessions.  The cap is per ActiveUser record: with F5's
   second record (C17's finding) the user-level count can reach 2*cp. *)
Theorem C15_cap : forall c d nw u cp s, (0 <= cp)%Z -> reach_capped c d nw u cp s ->
  forall r, r < nrec s -> r_uid (recs s r) = u -> r_bypass (recs s r) = false ->
  (Z.of_nat (length (r_sess (recs s r))) <= cp)%Z.
Proof. exact cap_respected. Qed.
Print Assumptions C15_cap.

(* the hypotheses are met: user 1 of db1 has cap 2; two sessions are admitted, the third
   connection is refused (it runs into CloseSession instead), in a run along which the cap is 2 *)
Example C15_cap_applies :
  match run cfg_now (init db1 10) ([Spawn (OpDispatch 1 1)] ++ runs 0 4 ++ [Spawn (OpDispatch 1 2)] ++ runs 1 4
                                   ++ [Spawn (OpDispatch 1 3)] ++ runs 2 4) with
  | Some s => (length (r_sess (recs s 0)) =? 2) && (nses s =? 2)
              && match thr s 2 with C0 0 3%N => true | _ => false end
  | None => false
  end = true.
Proof. vm_compute. reflexivity. Qed.

(* No session without credit: whenever the session table of a limited user's record grows, the
   user exists, both credits are positive, it has not expired, and the new size is within the
   cap - at that very step, in every interleaving with admin changes and uploads.  And the
   database function refuses exhausted / expired / unknown users whatever the count. *)
Theorem C15_no_credit_no_session :
  (forall c d nw s l s' r, reachable c d nw s -> step c s l = Some s' ->
     r_bypass (recs s r) = false ->
     length (r_sess (recs s r)) < length (r_sess (recs s' r)) ->
     exists dr, db s (r_uid (recs s r)) = Some dr
       /\ (0 < fst (d_credit dr))%Z /\ (0 < snd (d_credit dr))%Z /\ (now s <= d_exp dr)%Z
       /\ (Z.of_nat (length (r_sess (recs s' r))) <= cap_read dr)%Z
       /\ length (r_sess (recs s' r)) = S (length (r_sess (recs s r))))
  /\ (forall nw d u n,
        (match d u with
         | None => True
         | Some r => (fst (d_credit r) <= 0)%Z \/ (snd (d_credit r) <= 0)%Z \/ (d_exp r < nw)%Z
         end) ->
        authenticate nw d u <> AOk /\ authorise nw d u n <> AOk).
Proof. exact (conj (fun c d nw s l s' r _ => admission_checked c s l s' r) no_credit_refused). Qed.
Print Assumptions C15_no_credit_no_session.
