(* Facts about the TLS grammar and the ClientHello composer of Model/HelloGrammar.v. *)
From Coq Require Import NArith ZArith List Bool Arith Lia ZifyN ZifyNat ZifyBool.
From Cloak Require Import Model.HelloGrammar Proofs.ListFacts.
(* the 16- and 24-bit length fields are divisions by 256: lia gets them as equations, in this file only
   (the hook is reset at the end) *)
Ltac Zify.zify_post_hook ::= Z.div_mod_to_equations.
Import ListNotations.
Local Open Scope N_scope.

Lemma g_take_app : forall a b, g_take (length a) (a ++ b) = Some (a, b).
Proof.
  intros a b. unfold g_take. rewrite app_length.
  replace (length a <=? length a + length b)%nat with true by (symmetry; apply Nat.leb_le; lia).
  rewrite firstn_app_exact, skipn_app_exact; reflexivity.
Qed.

Lemma g_take_app_n : forall n a b, n = length a -> g_take n (a ++ b) = Some (a, b).
Proof. intros; subst; apply g_take_app. Qed.

Lemma g_take_spec : forall n l a b, g_take n l = Some (a, b) -> l = a ++ b /\ length a = n.
Proof.
  intros n l a b H. unfold g_take in H. destruct (n <=? length l)%nat eqn:E; [|discriminate].
  inversion H; subst. split. symmetry; apply firstn_skipn.
  apply firstn_length_le. apply Nat.leb_le; exact E.
Qed.

Lemma lenN_app : forall a b, lenN (a ++ b) = lenN a + lenN b.
Proof. intros. unfold lenN. rewrite app_length. lia. Qed.
Lemma lenN_cons : forall x l, lenN (x :: l) = 1 + lenN l.
Proof. intros. unfold lenN. cbn [length]. lia. Qed.
Lemma lenN_nil : lenN [] = 0.
Proof. reflexivity. Qed.
Lemma to_nat_lenN : forall l, N.to_nat (lenN l) = length l.
Proof. intros. unfold lenN. lia. Qed.

Lemma u16_dec : forall x, x < 65536 -> (x / 256) mod 256 * 256 + x mod 256 = x.
Proof. intros. lia. Qed.
Lemma u24_dec : forall x, x < 16777216 ->
  (x / 65536) mod 256 * 65536 + (x / 256) mod 256 * 256 + x mod 256 = x.
Proof. intros. lia. Qed.
Lemma u8_dec : forall x, x < 256 -> x mod 256 = x.
Proof. intros. lia. Qed.

Lemma g_bytes_eqb_refl : forall a, g_bytes_eqb a a = true.
Proof. induction a; cbn [g_bytes_eqb]; [reflexivity|]. rewrite N.eqb_refl, IHa. reflexivity. Qed.
Lemma g_bytes_eqb_eq : forall a b, g_bytes_eqb a b = true -> a = b.
Proof.
  induction a as [|x a IH]; destruct b as [|y b]; cbn [g_bytes_eqb]; intros H; try discriminate; [reflexivity|].
  apply andb_prop in H. destruct H as [H1 H2]. apply N.eqb_eq in H1. subst. f_equal. apply IH; exact H2.
Qed.

(* records and TLV lists are read by the same loop: one item at a time, fuel = length, which suffices because an
   item is never empty *)
Section Many.
  Variables (A : Type) (one : list N -> option (A * list N)) (many : nat -> list N -> option (list A)).
  Hypothesis many_unfold : forall f l, many f l =
    match l, f with
    | [], _ => Some []
    | _, O => None
    | _, S f' => match one l with
                 | Some (r, rest) => match many f' rest with Some rs => Some (r :: rs) | None => None end
                 | None => None
                 end
    end.
  Hypothesis one_shrinks : forall l r rest, one l = Some (r, rest) -> (length rest < length l)%nat.

  Lemma many_fuel_enough : forall f l f', (length l <= f)%nat -> (length l <= f')%nat -> many f l = many f' l.
  Proof.
    induction f as [|f IH]; intros l f' H1 H2; rewrite (many_unfold _ l), (many_unfold f' l).
    - destruct l; [reflexivity | cbn [length] in H1; lia].
    - destruct l as [|x l]; [reflexivity|]. destruct f' as [|f']; [cbn [length] in H2; lia|].
      destruct (one (x :: l)) as [[r rest]|] eqn:E; [|reflexivity].
      apply one_shrinks in E. rewrite (IH rest f'); [reflexivity| |]; cbn [length] in *; lia.
  Qed.

  Lemma many_step : forall l r rest, one l = Some (r, rest) ->
    many (length l) l = match many (length rest) rest with Some rs => Some (r :: rs) | None => None end.
  Proof.
    intros l r rest E. pose proof (one_shrinks _ _ _ E) as Hs. rewrite many_unfold.
    destruct l as [|x l]; [cbn [length] in Hs; lia|]. cbn [length]. rewrite E.
    rewrite (many_fuel_enough (length l) rest (length rest)); [reflexivity| |]; cbn [length] in Hs; lia.
  Qed.
End Many.

Lemma parse_record_enc : forall r rest,
  r_ver r < 65536 -> lenN (r_body r) < 65536 ->
  parse_record (enc_record r ++ rest) = Some (r, rest).
Proof.
  intros [t v body] rest Hv Hl. cbn [r_ver r_body] in *.
  unfold enc_record, u16. cbn [r_type r_ver r_body app]. unfold parse_record.
  rewrite (u16_dec _ Hl), to_nat_lenN, g_take_app, (u16_dec _ Hv). reflexivity.
Qed.

Lemma parse_record_shrinks : forall l r rest, parse_record l = Some (r, rest) -> (length rest + 5 <= length l)%nat.
Proof.
  intros l r rest H. unfold parse_record in H.
  destruct l as [|t [|v1 [|v0 [|l1 [|l0 tl]]]]]; try discriminate.
  destruct (g_take _ tl) as [[b r']|] eqn:E; [|discriminate]. inversion H; subst.
  apply g_take_spec in E. destruct E as [E _]. subst tl. cbn [length]. rewrite app_length. lia.
Qed.

Lemma parse_records_nil : parse_records [] = Some [].
Proof. reflexivity. Qed.

Lemma parse_records_step : forall l r rest, parse_record l = Some (r, rest) ->
  parse_records l = match parse_records rest with Some rs => Some (r :: rs) | None => None end.
Proof.
  apply (many_step _ parse_record parse_records_fuel); [intros [|f] [|x l]; reflexivity|].
  intros l r rest E. apply parse_record_shrinks in E. lia.
Qed.

Lemma parse_records_cons : forall r rest,
  r_ver r < 65536 -> lenN (r_body r) < 65536 ->
  parse_records (enc_record r ++ rest) =
  match parse_records rest with Some rs => Some (r :: rs) | None => None end.
Proof. intros. apply parse_records_step. apply parse_record_enc; assumption. Qed.

(* the stream of records written one after the other parses back to exactly these records *)
Lemma parse_records_concat : forall rs,
  Forall (fun r => r_ver r < 65536 /\ lenN (r_body r) < 65536) rs ->
  parse_records (concat (map enc_record rs)) = Some rs.
Proof.
  induction rs as [|r rs IH]; intros H; [reflexivity|].
  inversion H as [|? ? [Hv Hl] Hrest]; subst. cbn [map concat].
  rewrite parse_records_cons by assumption. rewrite IH by assumption. reflexivity.
Qed.

Lemma parse_tlv_enc : forall e rest, tlv_fits e = true -> parse_tlv (enc_tlv e ++ rest) = Some (e, rest).
Proof.
  intros [t d] rest H. unfold tlv_fits in H. cbn [fst snd] in H.
  apply andb_prop in H. destruct H as [Ht Hd]. apply N.ltb_lt in Ht. apply N.ltb_lt in Hd.
  unfold enc_tlv, u16. cbn [fst snd app]. unfold parse_tlv.
  rewrite (u16_dec _ Hd), to_nat_lenN, g_take_app, (u16_dec _ Ht). reflexivity.
Qed.

Lemma parse_tlv_shrinks : forall l e rest, parse_tlv l = Some (e, rest) -> (length rest + 4 <= length l)%nat.
Proof.
  intros l e rest H. unfold parse_tlv in H.
  destruct l as [|t1 [|t0 [|l1 [|l0 tl]]]]; try discriminate.
  destruct (g_take _ tl) as [[b r']|] eqn:E; [|discriminate]. inversion H; subst.
  apply g_take_spec in E. destruct E as [E _]. subst tl. cbn [length]. rewrite app_length. lia.
Qed.

Lemma parse_tlvs_step : forall l e rest, parse_tlv l = Some (e, rest) ->
  parse_tlvs l = match parse_tlvs rest with Some es => Some (e :: es) | None => None end.
Proof.
  apply (many_step _ parse_tlv parse_tlvs_fuel); [intros [|f] [|x l]; reflexivity|].
  intros l r rest E. apply parse_tlv_shrinks in E. lia.
Qed.

Lemma parse_tlvs_enc : forall es, forallb tlv_fits es = true -> parse_tlvs (enc_tlvs es) = Some es.
Proof.
  induction es as [|e es IH]; intros H; [reflexivity|].
  cbn [forallb] in H. apply andb_prop in H. destruct H as [He Hes].
  unfold enc_tlvs. cbn [flat_map]. rewrite (parse_tlvs_step _ e (flat_map enc_tlv es)).
  - fold (enc_tlvs es). rewrite IH by exact Hes. reflexivity.
  - apply parse_tlv_enc; exact He.
Qed.

Lemma enc_tlvs_app : forall a b, enc_tlvs (a ++ b) = enc_tlvs a ++ enc_tlvs b.
Proof. intros. unfold enc_tlvs. apply flat_map_app. Qed.

(* a successful TLV parse splits the string exactly *)
Lemma parse_tlv_inv : forall l e rest, parse_tlv l = Some (e, rest) ->
  exists t1 t0 l1 l0, l = [t1; t0; l1; l0] ++ snd e ++ rest /\ fst e = t1 * 256 + t0 /\
                      length (snd e) = N.to_nat (l1 * 256 + l0).
Proof.
  intros l e rest H. unfold parse_tlv in H.
  destruct l as [|t1 [|t0 [|l1 [|l0 tl]]]]; try discriminate.
  destruct (g_take _ tl) as [[b r']|] eqn:E; [|discriminate]. inversion H; subst.
  apply g_take_spec in E. destruct E as [E1 E2]. subst tl.
  exists t1, t0, l1, l0. cbn [fst snd]. auto.
Qed.

Lemma assoc_app_notin : forall k a b, existsb (fun e => fst e =? k) a = false -> assoc k (a ++ b) = assoc k b.
Proof.
  induction a as [|[k' v] a IH]; intros b H; [reflexivity|].
  cbn [existsb fst] in H. apply orb_false_elim in H. destruct H as [H1 H2].
  cbn [app assoc]. rewrite N.eqb_sym, H1. apply IH; exact H2.
Qed.
Lemma assoc_head : forall k v l, assoc k ((k, v) :: l) = Some v.
Proof. intros. cbn [assoc]. rewrite N.eqb_refl. reflexivity. Qed.

Lemma parse_hello_body_compose : forall ver random sid suites comps es,
  ver < 65536 -> length random = 32%nat -> lenN sid < 256 -> lenN suites < 65536 -> lenN comps < 256 ->
  forallb tlv_fits es = true -> lenN (enc_tlvs es) < 65536 ->
  parse_hello_body (u16 ver ++ random ++ u8 (lenN sid) ++ sid ++ u16 (lenN suites) ++ suites ++
                    u8 (lenN comps) ++ comps ++ u16 (lenN (enc_tlvs es)) ++ enc_tlvs es)
  = Some (mkHello ver random sid suites comps es).
Proof.
  intros ver random sid suites comps es Hv Hr Hs Hcs Hcm Hes Hel.
  unfold parse_hello_body, u16, u8. cbn [app].
  rewrite (g_take_app_n 32 random) by (symmetry; exact Hr).
  rewrite (u8_dec _ Hs), to_nat_lenN, g_take_app.
  rewrite (u16_dec _ Hcs), to_nat_lenN, g_take_app.
  rewrite (u8_dec _ Hcm), to_nat_lenN, g_take_app.
  rewrite (u16_dec _ Hel), N.eqb_refl.
  rewrite parse_tlvs_enc by exact Hes. rewrite (u16_dec _ Hv). reflexivity.
Qed.

Lemma enc_tlvs_len_app : forall a b, lenN (enc_tlvs (a ++ b)) = lenN (enc_tlvs a) + lenN (enc_tlvs b).
Proof. intros. rewrite enc_tlvs_app, lenN_app. reflexivity. Qed.
Lemma enc_tlv_len : forall t d, lenN (enc_tlv (t, d)) = 4 + lenN d.
Proof. intros. unfold enc_tlv, u16. cbn [fst snd app]. rewrite !lenN_cons. lia. Qed.
Lemma enc_tlvs_single : forall e, enc_tlvs [e] = enc_tlv e.
Proof. intros. unfold enc_tlvs. cbn [flat_map]. apply app_nil_r. Qed.

Lemma mk_key_share_len : forall sk k,
  lenN (mk_key_share sk k) =
  2 + (lenN (enc_tlvs (sk_shares_before sk)) + (4 + lenN k + lenN (enc_tlvs (sk_shares_after sk)))).
Proof.
  intros. unfold mk_key_share. cbv zeta. rewrite lenN_app.
  change (lenN (u16 _)) with 2.
  rewrite !enc_tlvs_len_app, enc_tlvs_single, enc_tlv_len. lia.
Qed.

Lemma mk_exts_len : forall sk k,
  lenN (enc_tlvs (mk_exts sk k)) =
  lenN (enc_tlvs (sk_exts_before sk)) + (4 + lenN (mk_key_share sk k) + lenN (enc_tlvs (sk_exts_after sk))).
Proof. intros. unfold mk_exts. rewrite !enc_tlvs_len_app, enc_tlvs_single, enc_tlv_len. lia. Qed.

Lemma mk_hello_body_len : forall sk r s k,
  lenN (mk_hello_body sk r s k) =
  2 + lenN r + 1 + lenN s + 2 + lenN (sk_suites sk) + 1 + lenN (sk_comps sk) + 2 + lenN (enc_tlvs (mk_exts sk k)).
Proof.
  intros. unfold mk_hello_body, u16, u8. cbv zeta. cbn [app].
  repeat first [rewrite lenN_cons | rewrite lenN_app]. lia.
Qed.

Lemma lenN_repeat : forall (x : N) n, lenN (repeat x n) = N.of_nat n.
Proof. intros. unfold lenN. rewrite repeat_length. reflexivity. Qed.

Lemma forallb_app_intro : forall (f : N * list N -> bool) a b, forallb f a = true -> forallb f b = true -> forallb f (a ++ b) = true.
Proof. intros. rewrite forallb_app. rewrite H, H0. reflexivity. Qed.

Record wf_skeleton_facts (sk : skeleton) : Prop := {
  wsf_eb : forallb tlv_fits (sk_exts_before sk) = true;
  wsf_ea : forallb tlv_fits (sk_exts_after sk) = true;
  wsf_sb : forallb tlv_fits (sk_shares_before sk) = true;
  wsf_sa : forallb tlv_fits (sk_shares_after sk) = true;
  wsf_no29 : existsb (fun e => fst e =? group_x25519) (sk_shares_before sk) = false;
  wsf_no51 : existsb (fun e => fst e =? ext_key_share) (sk_exts_before sk) = false;
  wsf_suites : lenN (sk_suites sk) < 65536;
  wsf_comps : lenN (sk_comps sk) < 256;
  wsf_entries : lenN (enc_tlvs (sk_shares_before sk ++ [(group_x25519, repeat 0 32)] ++ sk_shares_after sk)) < 65534;
  wsf_total : lenN (mk_hello_body sk (repeat 0 32) (repeat 0 32) (repeat 0 32)) < 65532 }.

Lemma wf_skeleton_unfold : forall sk, wf_skeleton sk = true -> wf_skeleton_facts sk.
Proof.
  intros sk H. unfold wf_skeleton in H.
  repeat (apply andb_prop in H; let H' := fresh "H" in destruct H as [H H']).
  constructor; try assumption.
  - apply negb_true_iff; assumption.
  - apply negb_true_iff; assumption.
  - apply N.ltb_lt; assumption.
  - apply N.ltb_lt; assumption.
  - apply N.ltb_lt; assumption.
  - apply N.ltb_lt; assumption.
Qed.

(* the composed ClientHello parses, and the three fields are found where they were put *)
Lemma parse_mk_client_hello : forall sk r s k, wf_skeleton sk = true ->
  length r = 32%nat -> length s = 32%nat -> length k = 32%nat ->
  parse_client_hello (mk_client_hello sk r s k)
  = Some (mkHello 0x0303 r s (sk_suites sk) (sk_comps sk) (mk_exts sk k)).
Proof.
  intros sk r s k Hwf Hr Hs Hk. apply wf_skeleton_unfold in Hwf. destruct Hwf.
  assert (Lr : lenN r = 32) by (unfold lenN; rewrite Hr; reflexivity).
  assert (Ls : lenN s = 32) by (unfold lenN; rewrite Hs; reflexivity).
  assert (Lk : lenN k = 32) by (unfold lenN; rewrite Hk; reflexivity).
  rewrite mk_hello_body_len, mk_exts_len, mk_key_share_len, !lenN_repeat in wsf_total0.
  rewrite !enc_tlvs_len_app, enc_tlvs_single, enc_tlv_len, lenN_repeat in wsf_entries0.
  assert (Hks : lenN (mk_key_share sk k) < 65536) by (rewrite mk_key_share_len, Lk; lia).
  assert (Hfits : forallb tlv_fits (mk_exts sk k) = true).
  { unfold mk_exts. apply forallb_app_intro; [assumption|]. apply forallb_app_intro; [|assumption].
    cbn [forallb tlv_fits fst snd]. rewrite andb_true_r. apply andb_true_intro. split; [reflexivity|].
    apply N.ltb_lt. exact Hks. }
  assert (Hel : lenN (enc_tlvs (mk_exts sk k)) < 65536) by (rewrite mk_exts_len, mk_key_share_len, Lk; lia).
  assert (Hbody : lenN (mk_hello_body sk r s k) < 65532).
  { rewrite mk_hello_body_len, mk_exts_len, mk_key_share_len, Lr, Ls, Lk. lia. }
  unfold mk_client_hello, parse_client_hello. cbv zeta.
  rewrite <- (app_nil_r (enc_record _)).
  rewrite parse_record_enc.
  2:{ cbn [r_ver]. lia. }
  2:{ cbn [r_body]. unfold u24. cbn [app]. rewrite !lenN_cons. lia. }
  unfold hello_of_record. cbn [r_type r_ver r_body]. change ((22 =? 22) && (769 =? 769)) with true. cbv iota.
  unfold u24. cbn [app].
  rewrite u24_dec by lia. rewrite N.eqb_refl.
  unfold mk_hello_body. cbv zeta.
  rewrite parse_hello_body_compose; try assumption; try lia.
  reflexivity.
Qed.

Lemma hello_share_mk : forall sk k h, wf_skeleton sk = true -> length k = 32%nat -> h_exts h = mk_exts sk k ->
  hello_share h = Some k.
Proof.
  intros sk k h Hwf Hk Eh. apply wf_skeleton_unfold in Hwf. destruct Hwf.
  assert (Lk : lenN k = 32) by (unfold lenN; rewrite Hk; reflexivity).
  rewrite !enc_tlvs_len_app, enc_tlvs_single, enc_tlv_len, lenN_repeat in wsf_entries0.
  unfold hello_share. rewrite Eh. unfold mk_exts.
  rewrite assoc_app_notin by assumption. cbn [app]. rewrite assoc_head.
  unfold x25519_share, key_share_entries, mk_key_share, u16. cbv zeta. cbn [app].
  set (ents := sk_shares_before sk ++ (group_x25519, k) :: sk_shares_after sk).
  assert (Hlen : lenN (enc_tlvs ents) < 65536).
  { unfold ents. change ((group_x25519, k) :: sk_shares_after sk) with ([(group_x25519, k)] ++ sk_shares_after sk).
    rewrite !enc_tlvs_len_app, enc_tlvs_single, enc_tlv_len, Lk. lia. }
  rewrite (u16_dec _ Hlen), N.eqb_refl.
  rewrite parse_tlvs_enc.
  2:{ unfold ents. apply forallb_app_intro; [assumption|]. cbn [forallb]. rewrite wsf_sa0, andb_true_r.
      unfold tlv_fits. cbn [fst snd]. rewrite Lk. reflexivity. }
  unfold ents. rewrite assoc_app_notin by assumption. rewrite assoc_head. rewrite Hk. reflexivity.
Qed.

Lemma locate_mk_client_hello : forall sk r s k, wf_skeleton sk = true ->
  length r = 32%nat -> length s = 32%nat -> length k = 32%nat ->
  locate_fields (mk_client_hello sk r s k) = Some (r, s, k).
Proof.
  intros sk r s k Hwf Hr Hs Hk. unfold locate_fields.
  rewrite parse_mk_client_hello by assumption.
  rewrite (hello_share_mk sk k (mkHello 0x0303 r s (sk_suites sk) (sk_comps sk) (mk_exts sk k)) Hwf Hk eq_refl).
  reflexivity.
Qed.

Definition infix (a l : list N) : Prop := exists pre post, l = pre ++ a ++ post.
Lemma infix_trans : forall a b c, infix a b -> infix b c -> infix a c.
Proof.
  intros a b c (p1 & q1 & E1) (p2 & q2 & E2). subst. exists (p2 ++ p1), (q1 ++ q2).
  rewrite <- !app_assoc. reflexivity.
Qed.
Lemma infix_embed : forall a l pre post, infix a l -> infix a (pre ++ l ++ post).
Proof. intros a l pre post H. apply (infix_trans a l); [exact H|]. exists pre, post. reflexivity. Qed.

Lemma parse_tlvs_fuel_infix : forall fuel l es, parse_tlvs_fuel fuel l = Some es ->
  forall k v, assoc k es = Some v -> infix v l.
Proof.
  induction fuel as [|f IH]; intros l es H k v Ha.
  - destruct l; cbn [parse_tlvs_fuel] in H; [|discriminate]. inversion H; subst. discriminate.
  - destruct l as [|x l]; cbn [parse_tlvs_fuel] in H; [inversion H; subst; discriminate|].
    destruct (parse_tlv (x :: l)) as [[e rest]|] eqn:E; [|discriminate].
    destruct (parse_tlvs_fuel f rest) as [es'|] eqn:E'; [|discriminate]. inversion H; subst.
    destruct (parse_tlv_inv _ _ _ E) as (t1 & t0 & l1 & l0 & El & _ & _).
    destruct e as [t d]. cbn [assoc] in Ha. cbn [snd] in El.
    destruct (k =? t).
    + inversion Ha; subst. exists [t1; t0; l1; l0], rest. exact El.
    + rewrite El. pose proof (IH rest es' E' k v Ha) as Hi.
      apply (infix_embed v rest ([t1; t0; l1; l0] ++ d) []) in Hi.
      rewrite app_nil_r, <- app_assoc in Hi. exact Hi.
Qed.
Lemma parse_tlvs_infix : forall l es k v, parse_tlvs l = Some es -> assoc k es = Some v -> infix v l.
Proof. intros l es k v H Ha. exact (parse_tlvs_fuel_infix _ _ _ H k v Ha). Qed.

Lemma x25519_share_inv : forall d k, x25519_share d = Some k -> length k = 32%nat /\ infix k d.
Proof.
  intros d k H. unfold x25519_share, key_share_entries in H.
  destruct d as [|k1 [|k0 entries]]; try discriminate.
  destruct (k1 * 256 + k0 =? lenN entries); [|discriminate].
  destruct (parse_tlvs entries) as [ents|] eqn:E; [|discriminate].
  destruct (assoc group_x25519 ents) as [k'|] eqn:Ea; [|discriminate].
  destruct (length k' =? 32)%nat eqn:El; [|discriminate]. inversion H; subst.
  split; [apply Nat.eqb_eq; exact El|].
  apply (infix_trans k entries); [exact (parse_tlvs_infix _ _ _ _ E Ea)|].
  exists [k1; k0], []. rewrite app_nil_r. reflexivity.
Qed.

(* a parsed ClientHello, byte for byte: record header, handshake header, then the body field by field *)
Lemma parse_hello_body_layout : forall rest h, parse_hello_body rest = Some h ->
  exists v1 v0 c1 c0 m e1 e0 exts,
    rest = [v1; v0] ++ h_random h ++ [N.of_nat (length (h_sid h))] ++ h_sid h ++ [c1; c0] ++ h_suites h ++
           [m] ++ h_comps h ++ [e1; e0] ++ exts /\
    length (h_random h) = 32%nat /\ length (h_suites h) = N.to_nat (c1 * 256 + c0) /\
    length (h_comps h) = N.to_nat m /\ parse_tlvs exts = Some (h_exts h).
Proof.
  intros rest h H. unfold parse_hello_body in H.
  destruct rest as [|v1 [|v0 rest1]]; try discriminate.
  destruct (g_take 32 rest1) as [[random [|sl rest2]]|] eqn:E1; try discriminate.
  destruct (g_take (N.to_nat sl) rest2) as [[sid [|c1 [|c0 rest3]]]|] eqn:E2; try discriminate.
  destruct (g_take (N.to_nat (c1 * 256 + c0)) rest3) as [[suites [|m rest4]]|] eqn:E3; try discriminate.
  destruct (g_take (N.to_nat m) rest4) as [[comps [|e1 [|e0 exts]]]|] eqn:E4; try discriminate.
  destruct (e1 * 256 + e0 =? lenN exts); [|discriminate].
  destruct (parse_tlvs exts) as [es|] eqn:E5; [|discriminate]. inversion H; subst.
  cbn [h_random h_sid h_suites h_comps h_exts].
  apply g_take_spec in E1. apply g_take_spec in E2. apply g_take_spec in E3. apply g_take_spec in E4.
  destruct E1 as [E1 L1], E2 as [E2 L2], E3 as [E3 L3], E4 as [E4 L4]. subst.
  exists v1, v0, c1, c0, m, e1, e0, exts. rewrite L2, N2Nat.id.
  repeat split; assumption.
Qed.

Lemma parse_client_hello_layout : forall l h, parse_client_hello l = Some h ->
  exists l1 l0 n2 n1 n0 v1 v0 w1 w0 c1 c0 m e1 e0 exts,
    let body := [v1; v0] ++ h_random h ++ [N.of_nat (length (h_sid h))] ++ h_sid h ++ [c1; c0] ++ h_suites h ++
                [m] ++ h_comps h ++ [e1; e0] ++ exts in
    l = [22; w1; w0; l1; l0] ++ [1; n2; n1; n0] ++ body /\
    w1 * 256 + w0 = 769 /\ n2 * 65536 + n1 * 256 + n0 = lenN body /\
    length (h_random h) = 32%nat /\ length (h_suites h) = N.to_nat (c1 * 256 + c0) /\
    length (h_comps h) = N.to_nat m /\ parse_tlvs exts = Some (h_exts h).
Proof.
  intros l h H. unfold parse_client_hello in H.
  destruct (parse_record l) as [[r rest]|] eqn:Er; [|discriminate]. destruct rest; [|discriminate].
  unfold hello_of_record in H.
  destruct (r_type r =? 22) eqn:Ety; [|discriminate]. destruct (r_ver r =? 769) eqn:Ever; [|discriminate].
  cbn [andb] in H.
  destruct (r_body r) as [|b0 body'] eqn:Eb; [discriminate|].
  destruct b0 as [|[p|p|]]; try discriminate.
  destruct body' as [|n2 [|n1 [|n0 rest]]]; try discriminate.
  destruct (n2 * 65536 + n1 * 256 + n0 =? lenN rest) eqn:Elen; [|discriminate].
  destruct (parse_hello_body_layout rest h H) as (v1 & v0 & c1 & c0 & m & e1 & e0 & exts & E & L1 & L3 & L4 & P).
  unfold parse_record in Er.
  destruct l as [|t [|w1 [|w0 [|l1 [|l0 tl]]]]]; try discriminate.
  destruct (g_take _ tl) as [[b r']|] eqn:Et; [|discriminate]. inversion Er; subst r r'.
  apply g_take_spec in Et. destruct Et as [Et _]. rewrite app_nil_r in Et. subst tl.
  cbn [r_body r_type r_ver] in *. subst b. apply N.eqb_eq in Ety. apply N.eqb_eq in Ever. apply N.eqb_eq in Elen. subst t.
  exists l1, l0, n2, n1, n0, v1, v0, w1, w0, c1, c0, m, e1, e0, exts. cbv zeta. rewrite <- E.
  repeat split; assumption.
Qed.

Lemma wf_hello_inv : forall name h, wf_hello name h = true ->
  length (h_random h) = 32%nat /\ length (h_sid h) = 32%nat /\
  hello_server_name h = Some name /\ exists k, hello_share h = Some k.
Proof.
  intros name h H. unfold wf_hello in H.
  repeat (apply andb_prop in H; let H' := fresh "W" in destruct H as [H H']).
  destruct (hello_server_name h) as [n|]; [|discriminate].
  destruct (hello_share h) as [k|]; [|discriminate].
  repeat match goal with Hx : g_bytes_eqb _ _ = true |- _ => apply g_bytes_eqb_eq in Hx; subst end.
  repeat match goal with Hx : (_ =? _)%nat = true |- _ => apply Nat.eqb_eq in Hx end.
  repeat split; try assumption. exists k. reflexivity.
Qed.

(* THE statement of C10 about the client's first flight: a well-formed hello carries the expected server
   name, a 32-byte random at offset 11, the session-id length byte 32 at offset 43, the 32-byte session
   id at offset 44, and a 32-byte x25519 share inside its key_share extension - the three fields are the
   ones the locator returns (and the ones the composer was given: locate_mk_client_hello) *)
Lemma wf_hello_fields : forall name l, wf_client_hello name l = true ->
  exists r s k,
    locate_fields l = Some (r, s, k) /\ server_name_of l = Some name /\
    length r = 32%nat /\ length s = 32%nat /\ length k = 32%nat /\
    firstn 32 (skipn 11 l) = r /\ nth 43 l 0 = 32 /\ firstn 32 (skipn 44 l) = s /\ infix k l.
Proof.
  intros name l H. unfold wf_client_hello in H.
  destruct (parse_client_hello l) as [h|] eqn:Eh; [|discriminate].
  destruct (wf_hello_inv name h H) as (W6 & W5 & En & k & Ek).
  destruct (parse_client_hello_layout l h Eh)
    as (l1 & l0 & n2 & n1 & n0 & v1 & v0 & w1 & w0 & c1 & c0 & m & e1 & e0 & exts & El & _ & _ & Lr & _ & _ & Pe).
  cbn [app] in El. rewrite W5 in El.
  exists (h_random h), (h_sid h), k.
  unfold locate_fields, server_name_of. rewrite Eh, Ek, En.
  unfold hello_share in Ek. destruct (assoc ext_key_share (h_exts h)) as [d|] eqn:Ea; [|discriminate].
  destruct (x25519_share_inv d k Ek) as [Lk Ik].
  repeat split; try assumption.
  - rewrite El. cbn [skipn]. apply firstn_app_exact. exact W6.
  - rewrite El. cbn [nth]. rewrite app_nth2, W6 by lia. reflexivity.
  - rewrite El. do 11 rewrite skipn_cons. rewrite skipn_app, skipn_all2, W6 by lia. cbn [Nat.sub skipn app].
    apply firstn_app_exact. exact W5.
  - apply (infix_trans k d); [exact Ik|]. apply (infix_trans d exts); [exact (parse_tlvs_infix _ _ _ _ Pe Ea)|].
    exists ([22; w1; w0; l1; l0; 1; n2; n1; n0; v1; v0] ++ h_random h ++ [N.of_nat 32] ++ h_sid h ++ [c1; c0] ++
            h_suites h ++ [m] ++ h_comps h ++ [e1; e0]), [].
    rewrite El, app_nil_r. repeat (rewrite <- app_comm_cons || rewrite <- app_assoc). reflexivity.
Qed.

Ltac Zify.zify_post_hook ::= idtac.
