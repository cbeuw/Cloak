(* The Gallina AES-GCM satisfies the one hypothesis the no-panic theorem makes about the cipher. *)
From Coq Require Import NArith ZArith List.
From Cloak Require Import Model.Dispatch Model.DispatchInst Proofs.Crypto Proofs.Dispatch.
Import ListNotations.

Lemma decide_gcm_no_crash : forall dh p st now, decide_gcm dh p st now <> Crash.
Proof.
  intros dh p st now. unfold decide_gcm. apply decide_no_crash.
  intros k n ct aad pt H. apply gcm_open_length in H. exact H.
Qed.
