(* C01 - Tunnelled TCP streams deliver exactly the bytes written, in order, per stream.
   Statements over EVERY label sequence of the session-pair model coq/Model/Mux.v: any number of
   connections and streams, any write sizes, any cross-connection arrival order, in both
   directions (s ranges over both sides) - and, for the prefix statement, also any faults, closes
   and timers. *)
From Coq Require Import NArith ZArith List Bool.
From Cloak Require Import Model.Reorder Model.Mux Proofs.MuxBase Proofs.MuxSafety Proofs.MuxView
  Proofs.MuxEffect Proofs.MuxPay Proofs.MuxData Proofs.MuxCalm Proofs.MuxCount Proofs.MuxUp Proofs.MuxCov Proofs.MuxLive.
Import ListNotations.
Local Open Scope N_scope.

(* What the reader of stream sid on the other side has been given is a prefix of what the writes of
   side s on that same stream accepted: same bytes, same order, nothing duplicated, corrupted or
   taken from another stream - whatever the arrival order across connections. *)
Theorem C01_reads_prefix_of_written :
  forall k sp u ta tb s sid ls,
  fresh_run (init k sp u ta tb) ls ->
  nE (run_frames s sid (outputs k sp u ta tb ls)) + 2 < two64 ->
  exists tail, run_written s sid ls (outputs k sp u ta tb ls) = run_reads s sid ls (outputs k sp u ta tb ls) ++ tail.
Proof. exact reads_prefix_of_written. Qed.
Print Assumptions C01_reads_prefix_of_written.

(* the invariant behind it, in every reachable state: frames numbered in emission order; every
   frame in flight is one of them, at most once; the receiver's re-sequencer holds exactly the
   arrived ones; what was read plus what waits in the pipe is the concatenation of the first k *)
Theorem C01_data_invariant :
  forall k sp u ta tb s sid ls,
  fresh_run (init k sp u ta tb) ls ->
  nE (run_frames s sid (outputs k sp u ta tb ls)) + 2 < two64 ->
  PD s sid (reach k sp u ta tb ls) (run_frames s sid (outputs k sp u ta tb ls))
     (run_reads s sid ls (outputs k sp u ta tb ls)) [].
Proof. exact reach_PD. Qed.
Print Assumptions C01_data_invariant.

(* "While every underlying connection stays healthy and neither side closes it, a session with open
   streams keeps working": over k >= 1 connections, in multiplexed mode, after ANY sequence of opens,
   writes, reads, accepts, stream closes, frame deliveries (any cross-connection order, any
   connection picks) and inactivity-timer ticks taken while both sides have an open stream,
   neither session is closed, neither switchboard is broken, and no connection is closed or failed. *)
Theorem C01_session_with_open_streams_stays_up :
  forall k unit toA toB ls,
  (1 <= k)%nat -> 1 <= unit ->
  fresh_opens (init k false unit toA toB) ls -> busy_run k (init k false unit toA toB) ls ->
  all_up (reach k false unit toA toB ls).
Proof.
  intros k unit toA toB ls Hk Hu Hf Hb. unfold reach. destruct (run (init k false unit toA toB) ls) as [y os] eqn:Er.
  eapply Healthy_all_up, busy_run_H; [exact Er|exact Hb|exact Hf|apply init_WF|apply init_CIs|now apply init_H].
Qed.
Print Assumptions C01_session_with_open_streams_stays_up.

(* ... and every Write on a stream that is open at the writer is accepted whole (stated for runs that take no
   timer tick at all: calm_run) *)
Theorem C01_write_accepted_whole :
  forall k unit toA toB ls y outs x sid data ch st y' evs,
  (1 <= k)%nat -> 1 <= unit -> calm_run k ls -> run (init k false unit toA toB) ls = (y, outs) ->
  valid_picks k ch -> lookup sid (se_objs (sess y x)) = Some st -> st_closed st = false ->
  step y (LWrite x sid data) ch = (y', evs) ->
  exists e0 e1, evs = e0 ++ ERet R_OK (N.of_nat (List.length data)) [] :: e1.
Proof.
  intros k unit toA toB ls y outs x sid data ch st y' evs Hk Hu Hc Hr. apply healthy_write_accepted.
  eapply run_H; [exact Hr|exact Hc|now apply init_H].
Qed.
Print Assumptions C01_write_accepted_whole.

(* Nothing is lost: on a healthy session (k >= 1 connections, multiplexed; any opens, writes, reads,
   accepts, stream closes, deliveries in any cross-connection order, timer ticks while
   streams are open), for each direction (s, sid) of a stream in which no closing frame has been
   emitted and whose reader has not closed its end: once no frame of that direction is in flight,
   the bytes read so far followed by the bytes waiting in the reader's pipe are EXACTLY the bytes
   the writes accepted - every byte, once, in order. *)
Theorem C01_nothing_lost :
  forall s sid k unit toA toB ls,
  (1 <= k)%nat -> 1 <= unit ->
  fresh_run (init k false unit toA toB) ls -> busy_run k (init k false unit toA toB) ls ->
  let os := outputs k false unit toA toB ls in
  let y := reach k false unit toA toB ls in
  nE (run_frames s sid os) + 2 < two64 -> all_data (run_frames s sid os) ->
  inflight s sid y = [] -> ron (rview s sid y) ->
  run_written s sid ls os =
  run_reads s sid ls os ++ match rview s sid y with Some (rb, _) => pipe rb | None => [] end.
Proof. exact nothing_lost. Qed.
Print Assumptions C01_nothing_lost.

(* ---------------------------------------------------------------------------------------------
   The relay level: common.Copy (internal/common/copy.go) and the uplink of client.RouteTCP
   (internal/client/piper.go), Model/Copy.v.  The behaviour of the two connections is an input: ANY
   script of Read results (bytes + error) and Write results (count + error). *)
From Cloak Require Import Model.Copy Proofs.Copy.
Local Open Scope Z_scope.

(* What Copy's loop hands to dst.Write is, byte for byte and in order, what the Read calls it consumed
   returned (`pre` = the consumed prefix of the script): nothing dropped, duplicated or invented,
   whatever the reads return (empty reads, bytes together with an error) and however the writes fail. *)
Theorem C01_copy_forwards_exactly : forall rs ws dn,
  co_fuel (copy KPlain rs ws dn) = false ->
  exists pre, rs = pre ++ co_reads_left (copy KPlain rs ws dn) /\
              concat (writes_of (co_evs (copy KPlain rs ws dn))) = concat (map fst pre).
Proof. exact copy_forwards_reads. Qed.
Print Assumptions C01_copy_forwards_exactly.

(* A source that ends with EOF after any successful reads, into a sink that takes what it is given:
   EVERYTHING is forwarded (also the bytes that came together with the EOF), the error is nil and the
   count returned is the number of bytes forwarded. *)
Theorem C01_copy_complete : forall pre d left ws dn,
  forallb rnil pre = true -> (length pre + 1 <= length ws)%nat -> forallb honest ws = true ->
  co_fuel (copy KPlain (pre ++ (d, REOF) :: left) ws dn) = false /\
  co_err (copy KPlain (pre ++ (d, REOF) :: left) ws dn) = CNil /\
  concat (writes_of (co_evs (copy KPlain (pre ++ (d, REOF) :: left) ws dn))) = concat (map fst pre) ++ d /\
  co_written (copy KPlain (pre ++ (d, REOF) :: left) ws dn) = zlen (concat (map fst pre) ++ d).
Proof. exact copy_complete. Qed.
Print Assumptions C01_copy_complete.

(* On every path - delegated to WriteTo / ReadFrom or not, success or failure - both connections are
   closed, source first, as the last two calls, and never before. *)
Theorem C01_copy_closes_both : forall k rs ws dn,
  exists evs, co_evs (copy k rs ws dn) = evs ++ [ECloseSrc; ECloseDst] /\ no_close evs = true.
Proof. exact copy_closes_both. Qed.
Print Assumptions C01_copy_closes_both.

(* A nil error is returned only after an EOF from the source. *)
Theorem C01_copy_nil_only_after_eof : forall rs ws written acc,
  co_fuel (copy_loop rs ws written acc) = false -> co_err (copy_loop rs ws written acc) = CNil ->
  exists pre d, rs = pre ++ (d, REOF) :: co_reads_left (copy_loop rs ws written acc) /\ forallb rnil pre = true.
Proof. exact copy_loop_nil_only_eof. Qed.
Print Assumptions C01_copy_nil_only_after_eof.

(* The uplink of RouteTCP (first packet by ReadAtLeast + Stream.Write, then Stream.ReadFrom): the
   concatenation of its Stream writes is a prefix of what the local connection's reads returned, and
   the local connection is closed on every path. *)
Theorem C01_relay_uplink_prefix : forall rs,
  (exists tail, concat (map fst rs) = concat (swrites (route_tcp_up rs)) ++ tail) /\ In SCloseLocal (route_tcp_up rs).
Proof. intros rs. split; [exact (route_tcp_up_prefix rs)|exact (route_tcp_up_closes_local rs)]. Qed.
Print Assumptions C01_relay_uplink_prefix.

(* End to end, composed with the session-pair theorem: if the writes of side s on stream sid are those
   of a RouteTCP uplink fed by the read script rs of its local connection, and the far end pumps what
   its Stream.Read calls return (rs2) into its own connection with Copy, then - over EVERY label
   sequence of the session pair, any number of connections, any arrival order, faults included, and
   every behaviour of the three connections - what the far connection is handed is a prefix of what the
   local peer sent. *)
Theorem C01_relay_end_to_end :
  forall k sp u ta tb s sid ls (rs rs2 : list rd) (ws : list wout) (dn : Z),
  fresh_run (init k sp u ta tb) ls ->
  (nE (run_frames s sid (outputs k sp u ta tb ls)) + 2 < two64)%N ->
  run_written s sid ls (outputs k sp u ta tb ls) = concat (swrites (route_tcp_up rs)) ->
  concat (map fst rs2) = run_reads s sid ls (outputs k sp u ta tb ls) ->
  co_fuel (copy KPlain rs2 ws dn) = false ->
  exists tail, concat (map fst rs) = concat (writes_of (co_evs (copy KPlain rs2 ws dn))) ++ tail.
Proof.
  intros k sp u ta tb s sid ls rs rs2 ws dn Hfresh Hseq Hw Hr Hf.
  exact (relay_chain rs rs2 ws dn _ _ Hw (reads_prefix_of_written k sp u ta tb s sid ls Hfresh Hseq) Hr Hf).
Qed.
Print Assumptions C01_relay_end_to_end.
