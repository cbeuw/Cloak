(* C07 - Only holders of valid, timely credentials are ever treated as Cloak clients.
   Only the property theorems, each closed by [exact <lemma>].

   The decision model (Model/Dispatch.v) is parameterised by X25519 (dh) and AES-GCM (gcm_open); the theorems
   hold for EVERY pair of functions such that opening strips the 16-byte tag (the Gallina AES-GCM does:
   Proofs/Crypto.v gcm_open_length).  Vocabulary (Proofs/Dispatch.v):
     valid_cloak dh gcm_open p st now ci  :=  the first packet parses (parser of Model/Hello.v) into an ephemeral
        value r and a 64-byte block c; r (bit 255 cleared) is not in the replay cache; c opens under the key
        X25519(static private key, r) with nonce r[0:12] to a 48-byte plaintext whose timestamp is strictly
        inside the window around the server clock; ci = the fields of that plaintext.
     admin_ok st ci   :=  AdminUID <> [] /\ uid = AdminUID /\ session id = 0
     user_active / In _ (st_bypass st) / db_authorises : the three ways a UID is authorised. *)
From Coq Require Import NArith ZArith List Bool.
From Cloak Require Import Gen.Consts Model.Hello Model.FirstPacket Model.Dispatch Proofs.Dispatch.
From Cloak Require Import Model.Crypto.X25519 Model.DispatchInst Model.LowOrder Proofs.LowOrder.
From Cloak Require Import Model.ServerInit Proofs.ServerInit.
From Cloak Require Proofs.Crypto.
Import ListNotations.
Local Open Scope N_scope.

(* soundness and completeness, proxy sessions: accepted exactly when the credential is valid and fresh, the
   encryption method is one MakeObfuscator knows, the admin gate does not apply, the method is in the
   ProxyBook, the UID is authorised (already active, or in BypassUID, or the database authorises it) and
   GetSession grants the session id *)
Theorem C07_sound_complete_proxy : forall (dh : list N -> list N -> option (list N)) (gcm_open : list N -> list N -> list N -> list N -> option (list N)),
  (forall k n ct aad pt, gcm_open k n ct aad = Some pt -> (length pt + 16 = length ct)%nat) ->
  forall p st now uid sid m enc un,
  decide dh gcm_open p st now = ProxySession uid sid m enc un <->
  exists ci, valid_cloak dh gcm_open p st now ci /\ known_enc (ci_enc ci) = true /\ ~ admin_ok st ci /\
    In (ci_method ci) (st_proxyBook st) /\
    (exists a, get_user st (ci_uid ci) now = Some a /\ get_session st a (ci_sid ci) now = true) /\
    uid = ci_uid ci /\ sid = ci_sid ci /\ m = ci_method ci /\ enc = ci_enc ci /\ un = ci_unordered ci.
Proof. exact decide_proxy_iff. Qed.

(* who get_user admits: already active, bypass list, or the database (exists, both credits > 0, not expired) *)
Theorem C07_authorised_uid : forall st uid now,
  (exists a, get_user st uid now = Some a) <->
  (user_active st uid \/ In uid (st_bypass st) \/ db_authorises st uid now).
Proof. exact get_user_some_iff. Qed.

(* the admin gate: the API is reached exactly with a valid credential carrying the configured, non-empty
   admin UID and session id 0 *)
Theorem C07_admin_gate : forall (dh : list N -> list N -> option (list N)) (gcm_open : list N -> list N -> list N -> list N -> option (list N)),
  (forall k n ct aad pt, gcm_open k n ct aad = Some pt -> (length pt + 16 = length ct)%nat) ->
  forall p st now,
  decide dh gcm_open p st now = AdminSession <->
  exists ci, valid_cloak dh gcm_open p st now ci /\ known_enc (ci_enc ci) = true /\ admin_ok st ci.
Proof. exact decide_admin_iff. Qed.

(* the credential itself: AuthFirstPacket succeeds exactly on valid_cloak *)
Theorem C07_auth_first_packet : forall (dh : list N -> list N -> option (list N)) (gcm_open : list N -> list N -> list N -> list N -> option (list N)),
  (forall k n ct aad pt, gcm_open k n ct aad = Some pt -> (length pt + 16 = length ct)%nat) ->
  forall p st now ci,
  auth_first_packet dh gcm_open p st now = DOk ci <-> valid_cloak dh gcm_open p st now ci.
Proof. exact auth_ok_iff. Qed.

(* every other first packet is web traffic (redirect), or - an authorised user refused a further session -
   dropped; never a crash; and the server originates no byte *)
Theorem C07_else_web : forall (dh : list N -> list N -> option (list N)) (gcm_open : list N -> list N -> list N -> list N -> option (list N)),
  (forall k n ct aad pt, gcm_open k n ct aad = Some pt -> (length pt + 16 = length ct)%nat) ->
  forall p st now,
  ~ is_session (decide dh gcm_open p st now) ->
  (exists r, decide dh gcm_open p st now = Redirect r) \/ decide dh gcm_open p st now = DropConn.
Proof. exact decide_else. Qed.

Theorem C07_else_no_server_byte : forall (dh : list N -> list N -> option (list N)) (gcm_open : list N -> list N -> list N -> list N -> option (list N)),
  (forall k n ct aad pt, gcm_open k n ct aad = Some pt -> (length pt + 16 = length ct)%nat) ->
  forall (http_hidden : list N -> option (list N)) s e st now,
  ~ is_session (decide dh gcm_open (packet_of http_hidden (rfp s e)) st now) ->
  server_writes (dispatch_conn dh gcm_open http_hidden s e st now) = false.
Proof. exact else_no_server_byte. Qed.
Print Assumptions C07_sound_complete_proxy.
Print Assumptions C07_authorised_uid.
Print Assumptions C07_admin_gate.
Print Assumptions C07_auth_first_packet.
Print Assumptions C07_else_web.
Print Assumptions C07_else_no_server_byte.

(* the window: strict on both sides, in nanoseconds of the server clock against whole seconds of the client's *)
Theorem C07_window : forall ts now, (Z.of_N ts < 2 ^ 62)%Z ->
  in_window ts now = true <->
  (now - tolerance < Z.of_N ts * ns_per_s /\ Z.of_N ts * ns_per_s < now + tolerance)%Z.
Proof. exact in_window_iff. Qed.
Print Assumptions C07_window.

Theorem C07_window_seconds : forall ts now, (Z.of_N ts < 2 ^ 62)%Z ->
  let sec := (now / ns_per_s)%Z in
  let nsec := (now mod ns_per_s)%Z in
  in_window ts now = true <->
  (sec - 180 < Z.of_N ts /\ (Z.of_N ts < sec + 180 \/ (Z.of_N ts = sec + 180 /\ 0 < nsec)))%Z.
Proof. exact in_window_seconds. Qed.
Print Assumptions C07_window_seconds.

(* edges: with the server clock on a whole second, +-180 s are rejected and +-179 s accepted; with a fractional
   server clock the client second sec+180 is (strictly) inside, sec-180 and sec+181 are not *)
Theorem C07_window_edges : forall sec, (180 <= sec)%Z -> (sec + 181 < 2 ^ 62)%Z ->
  let now := (sec * ns_per_s)%Z in
  in_window (Z.to_N (sec + 180)) now = false /\ in_window (Z.to_N (sec - 180)) now = false /\
  in_window (Z.to_N (sec + 179)) now = true /\ in_window (Z.to_N (sec - 179)) now = true /\
  (forall ns, (0 < ns < ns_per_s)%Z ->
     in_window (Z.to_N (sec + 180)) (now + ns) = true /\ in_window (Z.to_N (sec - 179)) (now + ns) = true /\
     in_window (Z.to_N (sec - 180)) (now + ns) = false /\ in_window (Z.to_N (sec + 181)) (now + ns) = false).
Proof. exact window_edges. Qed.
Print Assumptions C07_window_edges.

(* generated obligation: the tolerance the theorems speak about is the 180 s of the source *)
Theorem C07_tolerance_is_180s : tolerance = (180 * ns_per_s)%Z.
Proof. exact tolerance_180s. Qed.
Print Assumptions C07_tolerance_is_180s.

(* ------------------------------------------------------------------------------------------------------
   The key agreement.  [dh] is X25519 as the server calls it (internal/ecdh.GenerateSharedSecret =
   curve25519.X25519 = crypto/ecdh): it FAILS ([None]) when the result would be the all-zero string, which
   happens for every small-order input (Model/LowOrder.v: 14 strings; that it happens for no other input is what
   the libraries document and the driver observes, it is not a theorem here).  A sender who picks such a value
   knows the "secret" (zero) without knowing the server's public key; the theorems below say that no such
   packet is ever accepted, that the AEAD key of an accepted packet is never the zero string, and that the block
   of an accepted packet IS the AES-GCM sealing under X25519(server private key, ephemeral value of the packet).
   That nobody can compute that key without the server's private key or the ephemeral private key together with
   the server's PUBLIC key (the credential every client holds) is the computational assumption about X25519 and
   AES-GCM; it is not a theorem of any model and is named in the trusted base. *)
Section C07_key_agreement.
  Variable dh : list N -> list N -> option (list N).
  Variable gcm_open : list N -> list N -> list N -> list N -> option (list N).
  Hypothesis gcm_open_len : forall k n ct aad pt, gcm_open k n ct aad = Some pt -> (length pt + 16 = length ct)%nat.
  (* crypto/ecdh: "bad X25519 remote ECDH input: low order point" *)
  Hypothesis dh_rejects_low_order : forall pv u, low_order u = true -> dh pv u = None.

  (* no first packet whose ephemeral value is a small-order point is accepted by AuthFirstPacket or becomes a
     session - whatever its 64-byte block, the server state and the clock *)
  Theorem C07_accepted_not_low_order : forall p st now ci,
    auth_first_packet dh gcm_open p st now = DOk ci ->
    exists fr, first_packet dh p (st_staticPv st) = Ok fr /\ low_order (f_rand fr) = false.
  Proof. exact (accepted_not_low_order dh gcm_open gcm_open_len dh_rejects_low_order). Qed.

  Theorem C07_session_not_low_order : forall p st now,
    is_session (decide dh gcm_open p st now) ->
    exists fr, first_packet dh p (st_staticPv st) = Ok fr /\ low_order (f_rand fr) = false.
  Proof. exact (session_not_low_order dh gcm_open gcm_open_len dh_rejects_low_order). Qed.

  (* positively: a ClientHello (direct) / hidden header (CDN) carrying such a value is a parse error at the key
     agreement, i.e. ordinary web traffic *)
  Theorem C07_low_order_tls_is_web : forall data ch st now,
    parseClientHello data = Ok ch -> low_order (copy_into 32 (ch_random ch)) = true ->
    auth_first_packet dh gcm_open (PTLS data) st now = DFail (RParse EDH) /\
    decide dh gcm_open (PTLS data) st now = Redirect (RParse EDH).
  Proof using gcm_open_len dh_rejects_low_order. exact (low_order_tls_is_web dh gcm_open dh_rejects_low_order). Qed.

  Theorem C07_low_order_ws_is_web : forall h st now,
    (96 <= length h)%nat -> low_order (copy_into 32 (firstn 32 h)) = true ->
    auth_first_packet dh gcm_open (PWS (Some h)) st now = DFail (RParse EDH) /\
    decide dh gcm_open (PWS (Some h)) st now = Redirect (RParse EDH).
  Proof using gcm_open_len dh_rejects_low_order. exact (low_order_ws_is_web dh gcm_open dh_rejects_low_order). Qed.
End C07_key_agreement.
Print Assumptions C07_accepted_not_low_order.
Print Assumptions C07_session_not_low_order.
Print Assumptions C07_low_order_tls_is_web.
Print Assumptions C07_low_order_ws_is_web.

(* The hypothesis is a THEOREM of the Gallina X25519 the correspondence runs (Montgomery ladder of RFC 7748 with
   clamping and bit-255 masking, all-zero output = error): for EVERY private key and every one of the small-order
   inputs the ladder yields 0.  Proved over all scalars by an invariant on the projective pair ([m]P, [m+1]P). *)
Theorem C07_x25519_rejects_low_order : forall pv u, low_order u = true -> dh_real pv u = None.
Proof. exact dh_real_rejects_low_order. Qed.
Print Assumptions C07_x25519_rejects_low_order.

(* each of the 14 listed strings is a small-order input, and every integer below 2^256 that decodes to a
   small-order x-coordinate is one of the 14 listed values (7 below 2^255, and each with bit 255 set), of
   which the strings are the 32-byte encodings *)
Theorem C07_low_order_list :
  forallb low_order low_order_points = true /\
  forall v, (0 <= v < 2 ^ 256)%Z -> low_order_x (freduce (mask_u v)) = true -> In v low_order_values.
Proof. exact (conj low_order_points_low low_order_values_complete). Qed.
Print Assumptions C07_low_order_list.

(* hence, for the instantiated model (Gallina X25519 + Gallina AES-GCM), without any hypothesis: an accepted
   packet never carries a small-order ephemeral value; its AEAD key is the X25519 output, 32 bytes, never
   all-zero; and its 64-byte block is exactly gcm_seal under that key, nonce = first 12 bytes of the ephemeral
   value, of a 48-byte plaintext whose timestamp is inside the window *)
Theorem C07_accepted_not_low_order_x25519 : forall p st now ci,
  auth_first_packet dh_real Model.Crypto.GCM.gcm_open p st now = DOk ci ->
  exists fr, first_packet dh_real p (st_staticPv st) = Ok fr /\ low_order (f_rand fr) = false.
Proof. exact (accepted_not_low_order dh_real _ Proofs.Crypto.gcm_open_length dh_real_rejects_low_order). Qed.
Print Assumptions C07_accepted_not_low_order_x25519.

Theorem C07_accepted_key_nonzero_x25519 : forall p st now ci,
  auth_first_packet dh_real Model.Crypto.GCM.gcm_open p st now = DOk ci ->
  exists fr pt, first_packet dh_real p (st_staticPv st) = Ok fr /\
    dh_real (st_staticPv st) (f_rand fr) = Some (f_shared fr) /\ f_shared fr <> repeat 0 32 /\
    Model.Crypto.GCM.gcm_open (f_shared fr) (firstn 12 (f_rand fr)) (f_ct fr) [] = Some pt /\ ci = info_of pt.
Proof. exact (accepted_key_nonzero dh_real _ Proofs.Crypto.gcm_open_length dh_real_nonzero). Qed.
Print Assumptions C07_accepted_key_nonzero_x25519.

Theorem C07_accepted_is_sealed_x25519_gcm : forall p st now ci,
  auth_first_packet dh_real Model.Crypto.GCM.gcm_open p st now = DOk ci ->
  exists fr sh pt, first_packet dh_real p (st_staticPv st) = Ok fr /\
    dh_real (st_staticPv st) (f_rand fr) = Some sh /\
    f_ct fr = Model.Crypto.GCM.gcm_seal (copy_into 32 sh) (firstn 12 (f_rand fr)) pt [] /\
    length pt = 48%nat /\ in_window (pt_ts pt) now = true /\ ci = info_of pt.
Proof.
  exact (accepted_is_sealed_to_server dh_real _ Proofs.Crypto.gcm_open_length _ (fun k n c p H => Proofs.Crypto.gcm_open_inv k n c [] p H)).
Qed.
Print Assumptions C07_accepted_is_sealed_x25519_gcm.

(* the general forms of the last two, for every X25519 / AES-GCM with the stated properties *)
Theorem C07_accepted_key_nonzero : forall (dh : list N -> list N -> option (list N))
  (gcm_open : list N -> list N -> list N -> list N -> option (list N)),
  (forall k n ct aad pt, gcm_open k n ct aad = Some pt -> (length pt + 16 = length ct)%nat) ->
  (forall pv u s, dh pv u = Some s -> length s = 32%nat /\ s <> repeat 0 32) ->
  forall p st now ci,
  auth_first_packet dh gcm_open p st now = DOk ci ->
  exists fr pt, first_packet dh p (st_staticPv st) = Ok fr /\
    dh (st_staticPv st) (f_rand fr) = Some (f_shared fr) /\ f_shared fr <> repeat 0 32 /\
    gcm_open (f_shared fr) (firstn 12 (f_rand fr)) (f_ct fr) [] = Some pt /\ ci = info_of pt.
Proof. exact accepted_key_nonzero. Qed.
Print Assumptions C07_accepted_key_nonzero.

Theorem C07_accepted_is_sealed : forall (dh : list N -> list N -> option (list N))
  (gcm_open : list N -> list N -> list N -> list N -> option (list N)),
  (forall k n ct aad pt, gcm_open k n ct aad = Some pt -> (length pt + 16 = length ct)%nat) ->
  forall gcm_seal : list N -> list N -> list N -> list N -> list N,
  (forall k n c p, gcm_open k n c [] = Some p -> c = gcm_seal k n p []) ->
  forall p st now ci,
  auth_first_packet dh gcm_open p st now = DOk ci ->
  exists fr sh pt, first_packet dh p (st_staticPv st) = Ok fr /\
    dh (st_staticPv st) (f_rand fr) = Some sh /\
    f_ct fr = gcm_seal (copy_into 32 sh) (firstn 12 (f_rand fr)) pt [] /\
    length pt = 48%nat /\ in_window (pt_ts pt) now = true /\ ci = info_of pt.
Proof. exact accepted_is_sealed_to_server. Qed.
Print Assumptions C07_accepted_is_sealed.

(* ------------------------------------------------------------------------------------------------------
   The configuration layer.  The theorems above quantify over an arbitrary server State; the State a server really
   runs with is the one InitState (internal/server/state.go) builds from its RawConfig.  Model/ServerInit.v models
   that function (the resolvers and the database file are parameters); wf_uids rc = every configured UID has exactly
   16 bytes.  WHO IS SERVED WITHOUT CONSULTING THE USER DATABASE: exactly the configured BypassUID entries plus the
   configured AdminUID - and nobody when none is configured. *)
Theorem C07_config_bypass_exact : forall resolve_ip resolve_addr db_open rc io, wf_uids rc ->
  init_state resolve_ip resolve_addr db_open rc = IOk io ->
  forall uid, In uid (st_bypass (io_state io)) <->
              In uid (rc_bypass rc) \/ (rc_admin rc <> [] /\ uid = rc_admin rc).
Proof. exact init_bypass_exact. Qed.
Print Assumptions C07_config_bypass_exact.

Theorem C07_config_nothing_configured : forall resolve_ip resolve_addr db_open rc io,
  init_state resolve_ip resolve_addr db_open rc = IOk io ->
  rc_bypass rc = [] -> rc_admin rc = [] -> st_bypass (io_state io) = [] /\ st_db (io_state io) = [].
Proof. exact init_nothing_configured. Qed.
Print Assumptions C07_config_nothing_configured.

(* GetUser / GetBypassUser on that State (nobody is active yet): configured, or authorised by the database; with the
   Voidmanager (no AdminUID or no DatabasePath) the configured UIDs are all there is *)
Theorem C07_config_get_user : forall resolve_ip resolve_addr db_open rc io, wf_uids rc ->
  init_state resolve_ip resolve_addr db_open rc = IOk io ->
  forall uid now, (exists a, get_user (io_state io) uid now = Some a) <->
    (In uid (rc_bypass rc) \/ (rc_admin rc <> [] /\ uid = rc_admin rc) \/ db_authorises (io_state io) uid now).
Proof. exact init_get_user. Qed.
Theorem C07_config_void_get_user : forall resolve_ip resolve_addr db_open rc io, wf_uids rc ->
  init_state resolve_ip resolve_addr db_open rc = IOk io -> io_local_manager io = false ->
  forall uid now, (exists a, get_user (io_state io) uid now = Some a) <->
    (In uid (rc_bypass rc) \/ (rc_admin rc <> [] /\ uid = rc_admin rc)).
Proof. exact init_void_get_user. Qed.
Print Assumptions C07_config_get_user.
Print Assumptions C07_config_void_get_user.

(* the admin gate and the served methods in terms of the configuration *)
Theorem C07_config_admin : forall resolve_ip resolve_addr db_open rc io,
  init_state resolve_ip resolve_addr db_open rc = IOk io -> forall ci,
  admin_ok (io_state io) ci <-> rc_admin rc <> [] /\ ci_uid ci = rc_admin rc /\ ci_sid ci = 0.
Proof. exact init_admin_ok. Qed.
Theorem C07_config_book : forall resolve_ip resolve_addr db_open rc io,
  init_state resolve_ip resolve_addr db_open rc = IOk io -> forall m,
  In m (st_proxyBook (io_state io)) <->
  exists name network address, In (name, [network; address]) (rc_book rc) /\ m = lower name /\
    (lower network = tcp \/ lower network = udp).
Proof. exact init_book. Qed.
Print Assumptions C07_config_admin.
Print Assumptions C07_config_book.

(* composed with the decision: sessions on the State InitState built *)
Theorem C07_config_proxy_sound : forall resolve_ip resolve_addr db_open
  (dh : list N -> list N -> option (list N)) (gcm_open : list N -> list N -> list N -> list N -> option (list N)),
  (forall k n ct aad pt, gcm_open k n ct aad = Some pt -> (length pt + 16 = length ct)%nat) ->
  forall rc io, wf_uids rc -> init_state resolve_ip resolve_addr db_open rc = IOk io ->
  forall p now uid sid m enc un,
  decide dh gcm_open p (io_state io) now = ProxySession uid sid m enc un ->
  exists ci, valid_cloak dh gcm_open p (io_state io) now ci /\ uid = ci_uid ci /\
    (In uid (rc_bypass rc) \/ (rc_admin rc <> [] /\ uid = rc_admin rc) \/ db_authorises (io_state io) uid now) /\
    (exists name network address, In (name, [network; address]) (rc_book rc) /\ m = lower name /\
       (lower network = tcp \/ lower network = udp)).
Proof. exact config_proxy_sound. Qed.
Print Assumptions C07_config_proxy_sound.

Theorem C07_config_bypass_served : forall resolve_ip resolve_addr db_open
  (dh : list N -> list N -> option (list N)) (gcm_open : list N -> list N -> list N -> list N -> option (list N)),
  (forall k n ct aad pt, gcm_open k n ct aad = Some pt -> (length pt + 16 = length ct)%nat) ->
  forall rc io, wf_uids rc -> init_state resolve_ip resolve_addr db_open rc = IOk io ->
  forall p now ci,
  valid_cloak dh gcm_open p (io_state io) now ci -> known_enc (ci_enc ci) = true ->
  ~ (rc_admin rc <> [] /\ ci_uid ci = rc_admin rc /\ ci_sid ci = 0) ->
  In (ci_method ci) (st_proxyBook (io_state io)) ->
  (In (ci_uid ci) (rc_bypass rc) \/ (rc_admin rc <> [] /\ ci_uid ci = rc_admin rc)) ->
  decide dh gcm_open p (io_state io) now =
    ProxySession (ci_uid ci) (ci_sid ci) (ci_method ci) (ci_enc ci) (ci_unordered ci).
Proof. exact config_bypass_served. Qed.
Print Assumptions C07_config_bypass_served.

(* and nobody else: without a database behind the server, a valid credential whose UID is neither a configured bypass
   entry nor the configured admin is web traffic - e.g. the all-zero UID on a server without an AdminUID *)
Theorem C07_config_unconfigured_is_web : forall resolve_ip resolve_addr db_open
  (dh : list N -> list N -> option (list N)) (gcm_open : list N -> list N -> list N -> list N -> option (list N)),
  (forall k n ct aad pt, gcm_open k n ct aad = Some pt -> (length pt + 16 = length ct)%nat) ->
  forall rc io, wf_uids rc -> init_state resolve_ip resolve_addr db_open rc = IOk io -> io_local_manager io = false ->
  forall p now ci,
  auth_first_packet dh gcm_open p (io_state io) now = DOk ci ->
  ~ In (ci_uid ci) (rc_bypass rc) -> ~ (rc_admin rc <> [] /\ ci_uid ci = rc_admin rc) ->
  exists why, decide dh gcm_open p (io_state io) now = Redirect why.
Proof.
  intros resolve_ip resolve_addr db_open dh gcm_open _.
  exact (config_unconfigured_is_web resolve_ip resolve_addr db_open dh gcm_open).
Qed.
Print Assumptions C07_config_unconfigured_is_web.

(* the premise wf_uids is needed: InitState copies every entry into ONE shared 16-byte array, so an entry shorter than
   16 bytes inherits the tail of the entry before it (zeros for the first), a longer one is cut *)
Theorem C07_config_short_entry_inherits :
  bypass_keys [repeat 0xaa 16; [1; 2; 3]] [] = [[1; 2; 3] ++ repeat 0xaa 13; repeat 0xaa 16] /\
  bypass_keys [[1; 2; 3]] [] = [[1; 2; 3] ++ repeat 0 13] /\
  bypass_keys [repeat 0xaa 16] [7; 7] = [[7; 7] ++ repeat 0xaa 14; repeat 0xaa 16] /\
  bypass_keys [repeat 0xaa 16 ++ [1; 2]] [] = [repeat 0xaa 16].
Proof. exact short_entry_inherits. Qed.
Print Assumptions C07_config_short_entry_inherits.
