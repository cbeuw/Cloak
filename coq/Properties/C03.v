(* C03 - Closing a stream delivers everything written before it, then end-of-stream.
   Over every label sequence of the session-pair model (closing notice overtaking or trailing data
   on other connections, closes by either side or both, any number of connections). *)
From Coq Require Import NArith ZArith List Bool.
From Cloak Require Import Model.Reorder Model.Mux Proofs.MuxBase Proofs.MuxSafety Proofs.MuxView
  Proofs.MuxEffect Proofs.MuxPay Proofs.MuxData Proofs.MuxLocal Proofs.MuxCalm Proofs.MuxUp
  Proofs.MuxExact Proofs.MuxLive.
Import ListNotations.
Local Open Scope N_scope.

(* The closing notice is numbered after every data frame of the stream and carries no data; whatever
   the connections do, the reader is never given anything but a prefix of the bytes written before
   the close (never an early end with wrong bytes, never bytes of another stream). *)
Theorem C03_close_numbered_after_data :
  forall k sp u ta tb s sid ls,
  fresh_run (init k sp u ta tb) ls ->
  nE (run_frames s sid (outputs k sp u ta tb ls)) + 2 < two64 ->
  forall i fr, nth_error (run_frames s sid (outputs k sp u ta tb ls)) i = Some fr -> w_cl fr <> 0 ->
    S i = length (run_frames s sid (outputs k sp u ta tb ls)) /\ w_pay fr = [] /\ w_seq fr = N.of_nat i.
Proof.
  intros k sp u ta tb s sid ls Hf Hb i fr Hn Hc.
  destruct (frames_numbered k sp u ta tb s sid ls Hf Hb i fr Hn) as (H1 & _ & [H0|(_ & H2 & H3)]); [contradiction|auto].
Qed.
Print Assumptions C03_close_numbered_after_data.

Theorem C03_reader_gets_prefix :
  forall k sp u ta tb s sid ls,
  fresh_run (init k sp u ta tb) ls ->
  nE (run_frames s sid (outputs k sp u ta tb ls)) + 2 < two64 ->
  exists tail, run_written s sid ls (outputs k sp u ta tb ls) = run_reads s sid ls (outputs k sp u ta tb ls) ++ tail.
Proof. exact reads_prefix_of_written. Qed.
Print Assumptions C03_reader_gets_prefix.

(* Once a stream is closed (locally or by the processed peer close), writes on it fail ... *)
Theorem C03_writes_fail_after_close :
  forall y x sid data ch st,
  lookup sid (se_objs (sess y x)) = Some st -> st_closed st = true ->
  stream_write y x sid data ch = (y, [ERet R_BROKEN_STREAM 0 []]).
Proof. exact write_on_closed_stream. Qed.
Print Assumptions C03_writes_fail_after_close.

(* ... reads never block: they return the bytes that had already arrived, then the broken-stream error *)
Theorem C03_closed_stream_serves_buffered_then_error :
  forall k sp u ta tb ls x sid n st,
  let y := reach k sp u ta tb ls in
  lookup sid (se_objs (sess y x)) = Some st -> st_closed st = true ->
  match pipe (st_rb st) with
  | [] => try_read y x sid (S n) = Some (y, R_BROKEN_STREAM, [])
  | _ => exists y', try_read y x sid (S n) = Some (y', R_OK, firstn (S n) (pipe (st_rb st)))
  end.
Proof. intros k sp u ta tb ls x sid n st y. apply read_on_closed_stream, reach_WF. Qed.
Print Assumptions C03_closed_stream_serves_buffered_then_error.

(* Never an early end, never a lost tail: on a healthy session (k >= 1 connections, multiplexed; any
   opens, writes, reads, accepts, closes of streams, deliveries in ANY cross-connection order -
   closing notice overtaking or trailing the data - timer ticks while streams are open), if the
   reader's end of the stream is closed (its reads return what is left in the pipe, then the
   broken-stream error: C03_closed_stream_serves_buffered_then_error) and the reader did not close the
   stream itself, then the writer did close it, and the bytes the reader has read followed by the
   bytes still in its pipe are EXACTLY the bytes the writer's writes accepted. *)
Theorem C03_close_is_exact :
  forall s sid k unit toA toB ls rb,
  (1 <= k)%nat -> 1 <= unit ->
  fresh_run (init k false unit toA toB) ls -> busy_run k (init k false unit toA toB) ls ->
  no_local_close s sid ls ->
  let os := outputs k false unit toA toB ls in
  let y := reach k false unit toA toB ls in
  nE (run_frames s sid os) + 2 < two64 ->
  rview s sid y = Some (rb, true) ->
  cl_of (run_frames s sid os) <> two64 /\
  run_written s sid ls os = run_reads s sid ls os ++ pipe rb.
Proof. exact close_is_exact. Qed.
Print Assumptions C03_close_is_exact.

(* ... and the end-of-stream IS delivered: once the writer has closed the stream and no frame of that
   direction is in flight any more, the reader's end is closed (its reads return the rest of the
   pipe, then the broken-stream error) and it has been given, or still finds in its pipe, exactly
   the bytes written - whichever connections the data and the closing notice travelled on. *)
Theorem C03_close_is_delivered :
  forall s sid k unit toA toB ls,
  (1 <= k)%nat -> 1 <= unit ->
  fresh_run (init k false unit toA toB) ls -> busy_run k (init k false unit toA toB) ls ->
  no_local_close s sid ls ->
  let os := outputs k false unit toA toB ls in
  let y := reach k false unit toA toB ls in
  nE (run_frames s sid os) + 2 < two64 ->
  cl_of (run_frames s sid os) <> two64 -> inflight s sid y = [] ->
  exists rb, rview s sid y = Some (rb, true) /\ run_written s sid ls os = run_reads s sid ls os ++ pipe rb.
Proof. exact close_is_delivered. Qed.
Print Assumptions C03_close_is_delivered.

(* ---------------------------------------------------------------------------------------------
   The relay level: the two goroutines server.serveSession / client.RouteTCP start per stream
   (common.Copy in both directions, each closing BOTH ends when it is done), Model/RelayPair.v, as a
   transition system with one program counter per goroutine; `sched` is ANY schedule. *)
From Cloak Require Import Model.RelayPair Proofs.RelayPair.

(* The peer wrote B (= concat chunks) and closed the stream; the local peer sends nothing and keeps its
   connection open.  Then, whatever the schedule: the relay closes the local connection only after ALL
   of B has been written to it (never an early end, never a lost tail), what has been written so far
   is always a prefix of B, nothing is sent back up the stream, and the pair is never stuck before
   both goroutines have finished. *)
Theorem C03_relay_delivers_all_before_closing : forall chunks sched,
  let r := run false (RelayPair.init chunks true [] false) sched in
  (l_closed r = true -> l_out r = concat chunks) /\
  (exists tail, concat chunks = l_out r ++ tail) /\
  s_out r = [] /\
  (finished r = true \/ exists t r', step false r t = Some r').
Proof. exact relay_pair_delivers_all_before_closing. Qed.
Print Assumptions C03_relay_delivers_all_before_closing.

(* ... and it does finish: both ends closed, all of B delivered *)
Theorem C03_relay_can_finish : forall chunks,
  let r := run false (RelayPair.init chunks true [] false) (repeat_tid Down (length chunks + 3) ++ repeat_tid Up 3) in
  finished r = true /\ l_closed r = true /\ s_closed r = true /\ l_out r = concat chunks.
Proof. exact relay_pair_can_finish. Qed.
Print Assumptions C03_relay_can_finish.

(* In EVERY environment (whatever either side sends, whenever either side ends) and for every schedule:
   the bytes written to the local connection are a prefix of what the stream delivered, and the frames
   sent up the stream are an initial segment of what the local connection's reads returned. *)
Theorem C03_relay_pair_safe : forall chunks send lin leof sched,
  let r := run false (RelayPair.init chunks send lin leof) sched in
  (exists tail, concat chunks = l_out r ++ tail) /\ (exists rest, lin = s_out r ++ rest).
Proof. exact relay_pair_safe. Qed.
Print Assumptions C03_relay_pair_safe.

(* Why Stream.ReadFrom must not test the stream's closed flag BEFORE its read: with that test the up
   goroutine leaves as soon as the peer has closed, and its deferred closes shut the local connection
   while the down goroutine still holds undelivered bytes (witness: one chunk, schedule Up Up Up Down..). *)
Theorem C03_relay_early_check_refuted :
  exists chunks sched, let r := run true (RelayPair.init chunks true [] false) sched in
    finished r = true /\ l_closed r = true /\ l_out r <> concat chunks.
Proof. exact relay_pair_early_check_refuted. Qed.
Print Assumptions C03_relay_early_check_refuted.
