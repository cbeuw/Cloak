(* C06, second part: the agreement stated on the model of the server's OWN first-packet parser
   (Model/Hello.v: parseClientHello / parseExtensions / parseKeyShare / unmarshalClientHello
   with Go slice capacities and recover()), connected to the independent grammar by Proofs/AuthBridge.v.
   Kept apart from Properties/C06.v so that a change of Model/Hello.v cannot take the other theorems down. *)
From Coq Require Import NArith ZArith List.
From Cloak Require Import Model.Hello Model.HelloGrammar Model.Auth Proofs.Auth Proofs.AuthBridge.
Import ListNotations.
Local Open Scope N_scope.

(* On every well-formed ClientHello (bytes below 256) the server's parser succeeds and extracts exactly
   the fields the grammar locates; the only failure left is X25519's. *)
Theorem C06_server_parser_bridge : forall (dh : list N -> list N -> option (list N)) name l,
  wf_client_hello name l = true -> wf_bytes l ->
  forall pv, exists r s k,
    locate_fields l = Some (r, s, k) /\
    tls_first_packet dh l pv =
    match dh pv r with
    | None => Err EDH
    | Some ss => Ok (mkFrag (copy_into 32 ss) r (s ++ k))
    end.
Proof. exact server_parser_bridge. Qed.
Print Assumptions C06_server_parser_bridge.

(* server_process_tls of Model/Auth.v IS processFirstPacket + decryptClientInfo on well-formed hellos. *)
Theorem C06_server_process_is_parser : forall (dh : list N -> list N -> option (list N)) open name l pv now,
  wf_client_hello name l = true -> wf_bytes l ->
  server_process_tls dh open l pv now =
  match tls_first_packet dh l pv with
  | Ok fr => decrypt_client_info open (f_shared fr) (f_rand fr) (f_ct fr) (firstn 32 (f_ct fr)) now
  | Err EDH => Reject RejDH
  | _ => Reject RejHello
  end.
Proof. exact server_process_is_parser. Qed.
Print Assumptions C06_server_process_is_parser.

(* Agreement on the server's parser: the fragments it computes from the client's hello are exactly
   (shared secret, ephemeral public key, sealed block), and they decrypt to the client's configuration. *)
Theorem C06_agreement_tls_front :
  forall (dh : list N -> list N -> option (list N)) (pub : list N -> list N)
         (seal : list N -> list N -> list N -> list N -> list N)
         (open : list N -> list N -> list N -> list N -> option (list N)),
  (forall a b, dh a (pub b) = dh b (pub a)) ->                          (* dh_comm *)
  (forall a, length (pub a) = 32%nat) ->
  (forall k n p a, open k n (seal k n p a) a = Some p) ->
  (forall k n p a, length (seal k n p a) = (length p + 16)%nat) ->
  forall name i ts s_now ephPv staticPv secret hello,
  info_in_domain i -> ts < 2 ^ 64 -> in_window ts s_now = true ->
  dh ephPv (pub staticPv) = Some secret ->
  let shared := fit 32 secret in
  let ct := seal shared (firstn 12 (pub ephPv)) (pack i ts) [] in
  wf_client_hello name hello = true -> wf_bytes hello ->
  locate_fields hello = Some (pub ephPv, sub 0 32 ct, sub 32 64 ct) ->
  tls_first_packet dh hello staticPv = Ok (mkFrag shared (pub ephPv) ct) /\
  decrypt_client_info open shared (pub ephPv) ct (sub 0 32 ct) s_now = Accept i shared (sub 0 32 ct).
Proof. exact agreement_tls_parser. Qed.
Print Assumptions C06_agreement_tls_front.
