(* C12: "all of the session's connections end up closed".  At every quiescent moment a closed
   session has a broken switchboard (closeAll has run), whoever closed it and whether or not the
   closing notice could be sent; with the WF invariant, its end of every pooled connection is closed. *)
From Coq Require Import NArith ZArith List Bool Lia.
From Coq Require Import ZifyN ZifyBool.
From Cloak Require Import Model.Mux Proofs.MuxBase Proofs.MuxSafety.
Import ListNotations.
Local Open Scope N_scope.

Definition CB1 (se : session) : Prop := se_closed se = true -> se_broken se = true.
Definition CBs (y : sys) : Prop := forall x, CB1 (sess y x).

Lemma CB1_flags se se' : se_closed se' = se_closed se -> se_broken se' = se_broken se -> CB1 se -> CB1 se'.
Proof. unfold CB1. intros -> ->. auto. Qed.

Lemma close_all_CBs y s y' evs : close_all y s = (y', evs) -> CBs y -> CBs y'.
Proof.
  intros H Hc x. destruct (side_cases x s) as [->| ->].
  - intros _. eapply close_all_broken; eauto.
  - rewrite (close_all_other _ _ _ _ H). apply Hc.
Qed.

Lemma atom_CBs s P y y' : atom s P y y' -> CBs y -> CBs y'.
Proof.
  intros Ha Hc x. destruct (atom_cases _ _ _ _ Ha) as (Ho & Hs).
  destruct (side_cases x s) as [->| ->]; [|rewrite Ho; apply Hc]. specialize (Hc s).
  destruct Hs as [->|[Hm|(_ & _ & [->|Hb])]]; [exact Hc| |exact Hc|intros _; exact Hb].
  destruct (smove_fields _ _ _ Hm) as (E1 & E2 & _). exact (CB1_flags _ _ E1 E2 Hc).
Qed.

Lemma step_CBs y l ch y' evs : step y l ch = (y', evs) -> CBs y -> CBs y'.
Proof.
  intros H. apply (moves_inv (fun _ => True) (fun _ _ => True)); [intros s a b _; apply atom_CBs|].
  eapply step_moves; [exact H|exact (fun _ => I)|apply allows_all].
Qed.
Lemma init_CBs k sp u ta tb : CBs (init k sp u ta tb).
Proof. intros x Hcl. destruct x; discriminate Hcl. Qed.

Lemma reach_CBs k sp u ta tb ls : CBs (reach k sp u ta tb ls).
Proof. unfold reach. destruct (run _ ls) as [y os] eqn:Er. exact (run_inv CBs step_CBs ls _ _ _ Er (init_CBs _ _ _ _ _)). Qed.
