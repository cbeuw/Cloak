(* Concrete witnesses (evaluated by vm_compute) for what is false of the faithful model:
   - with the pre-fix acquisition order of updateUsageQueue, a reachable deadlock (F4, fixed
     in /repo by 1937ea8: the model parameter prefix_order re-introduces it);
   - the orphan session (F5, open): a session created in a record that has just been
     terminated. *)
From Coq Require Import ZArith NArith List Bool Lia Arith.
From Cloak Require Import Model.Panel Proofs.PanelLocks.
Import ListNotations.

(* ------------------------------------------------------------------ stuck states *)
Definition stuck (c : cfg) (s : state) : Prop :=
  (exists t, t < nthr s /\ thr s t <> Done) /\ forall t ch, step c s (Run t ch) = None.

Definition stuck_check (c : cfg) (s : state) : bool :=
  existsb (fun t => negb (is_done (thr s t))) (seq 0 (nthr s))
  && forallb (fun t => negb (enabled c s t)) (seq 0 (nthr s)).

(* whether a thread can move does not depend on the iteration choice *)
Lemma tstep_none_choice : forall c s t ch, tstep c s t 0 = None -> tstep c s t ch = None.
Proof.
  intros c s t ch. unfold tstep. destruct (thr s t); auto.
  destruct k; auto. destruct (rw_can_r (lkA s)); [discriminate | auto].
Qed.

Lemma stuck_check_sound : forall c s, stuck_check c s = true -> stuck c s.
Proof.
  intros c s H. apply andb_prop in H. destruct H as [H1 H2]. split.
  - apply existsb_exists in H1. destruct H1 as [t [Hin Ht]]. apply in_seq in Hin.
    exists t. split; [lia|]. intro E. rewrite E in Ht. discriminate.
  - intros t ch. cbn [step]. destruct (Nat.ltb_spec t (nthr s)); auto.
    apply tstep_none_choice. rewrite forallb_forall in H2.
    assert (Hin : In t (seq 0 (nthr s))) by (apply in_seq; lia).
    specialize (H2 _ Hin). unfold enabled in H2. cbn [step] in H2.
    destruct (Nat.ltb_spec t (nthr s)); [|lia]. destruct (tstep c s t 0); [discriminate|reflexivity].
Qed.

Definition run_stuck_check (c : cfg) (d : dbmap) (nw : Z) (ls : list label) : bool :=
  match run c (init d nw) ls with Some s => stuck_check c s | None => false end.

Lemma run_stuck_check_sound : forall c d nw ls, run_stuck_check c d nw ls = true ->
  exists s, reachable c d nw s /\ stuck c s.
Proof.
  unfold run_stuck_check. intros c d nw ls H. destruct (run c (init d nw) ls) as [s|] eqn:E; [|discriminate].
  exists s. split; [exists ls; exact E | now apply stuck_check_sound].
Qed.

(* one limited user: uid 1, cap 2, credits 1000/1000, expiry 100; the clock starts at 10 *)
Definition db1 : dbmap := fun u => if N.eqb u 1 then Some (mkDb 2 (1000, 1000)%Z 100) else None.
Definition cfg_prefix : cfg := mkCfg true false (fun _ => false) (fun _ => 0%Z).
Definition cfg_now : cfg := mkCfg false false (fun _ => false) (fun _ => 0%Z).
Definition cfg_patched : cfg := mkCfg false true (fun _ => false) (fun _ => 0%Z).

Fixpoint runs (t : nat) (n : nat) : list label :=
  match n with O => [] | S m => Run t 0 :: runs t m end.

(* F4.  Thread 0 admits a session of user 1; 5 bytes arrive; thread 1 (updateUsageQueue) puts
   them into the queue (it must be non-empty for commitUpdate to look at activeUsers).  Then
   T1 = thread 2 (updateUsageQueue) takes activeUsersM; T2 = thread 3 (commitUpdate) takes
   usageUpdateQueueM; T1 requests usageUpdateQueueM; T2 requests activeUsersM.RLock. *)
Definition deadlock_trace : list label :=
  [Spawn (OpDispatch 1 1)] ++ runs 0 4 ++ [Traffic 0 (5, 0)%Z; Spawn OpUpdate] ++ runs 1 3
  ++ [Spawn OpUpdate; Spawn OpCommit; Run 2 0; Run 3 0].

Lemma prefix_deadlock : exists s, reachable cfg_prefix db1 10%Z s /\ stuck cfg_prefix s
  /\ thr s 2 = U1 false /\ thr s 3 = M1 [1%N] [] /\ rw_w (lkA s) = Some 2 /\ lkQ s = Some 3.
Proof.
  destruct (run cfg_prefix (init db1 10%Z) deadlock_trace) as [s|] eqn:E; [|vm_compute in E; discriminate].
  exists s. split; [exists deadlock_trace; exact E|].
  assert (H : stuck_check cfg_prefix s = true /\ thr s 2 = U1 false /\ thr s 3 = M1 [1%N] []
              /\ rw_w (lkA s) = Some 2 /\ lkQ s = Some 3).
  { vm_compute in E. injection E as <-. vm_compute. auto. }
  destruct H as [H ?]. split; [now apply stuck_check_sound | assumption].
Qed.

(* with the repaired order the same label sequence is not a run (its last label is refused: thread 2
   holds usageUpdateQueueM when thread 3 asks for it), so the check answers false for lack of a state *)
Lemma fixed_order_same_schedule_runs :
  run_stuck_check cfg_now db1 10%Z deadlock_trace = false.
Proof. vm_compute. reflexivity. Qed.

(* ------------------------------------------------------------------ F5: the orphan session *)
From Cloak Require Import Proofs.PanelOwn.

Definition quiescent_check (s : state) : bool :=
  forallb (fun t => is_done (thr s t)) (seq 0 (nthr s)).

Definition owned1 (s : state) (k : nat) : bool :=
  let r := s_owner (sess s k) in
  s_closed (sess s k) || r_bypass (recs s r)
  || ((match table s (r_uid (recs s r)) with Some r' => Nat.eqb r' r | None => false end)
      && (match slook (s_sid (sess s k)) (r_sess (recs s r)) with Some k' => Nat.eqb k' k | None => false end)).

Lemma quiescent_check_sound : forall s, quiescent_check s = true -> quiescent s.
Proof.
  intros s H t Ht. unfold quiescent_check in H. rewrite forallb_forall in H.
  assert (Hin : In t (seq 0 (nthr s))) by (apply in_seq; lia).
  apply H in Hin. destruct (thr s t); try discriminate; reflexivity.
Qed.

Lemma owned1_false : forall s k, k < nses s -> owned1 s k = false -> ~ owned s.
Proof.
  intros s k Hk H Ho. unfold owned1 in H.
  apply orb_false_elim in H. destruct H as [H H3]. apply orb_false_elim in H. destruct H as [H1 H2].
  destruct (Ho k Hk H1 H2) as [Ht Hs]. rewrite Ht, Hs, !Nat.eqb_refl in H3. discriminate.
Qed.

(* Thread 0 admits session 1 of user 1 (record 0).  Thread 1 (a second connection, session id
   2) resolves the user: GetUser returns record 0; it is now at the schedule point
   dispatch.gotUser.  Thread 2 = CloseSession(1) of record 0: the last session, so
   TerminateActiveUser runs to the end (record 0 leaves activeUsers).  Thread 1 continues:
   GetSession creates session 2 IN RECORD 0.  Thread 3: the next connection of user 1 (session
   id 3) finds no active user and creates record 1 with a second valve. *)
Definition orphan_trace : list label :=
  [Spawn (OpDispatch 1 1)] ++ runs 0 4
  ++ [Spawn (OpDispatch 1 2)] ++ runs 1 2
  ++ [Spawn (OpClose 0 1)] ++ runs 2 9
  ++ runs 1 2
  ++ [Spawn (OpDispatch 1 3)] ++ runs 3 4.

Lemma orphan_state : exists s, reachable cfg_now db1 10%Z s /\ quiescent s
  /\ nrec s = 2 /\ r_uid (recs s 0) = 1%N /\ r_uid (recs s 1) = 1%N
  /\ r_bypass (recs s 0) = false
  /\ s_owner (sess s 1) = 0 /\ s_closed (sess s 1) = false     (* live session in record 0 *)
  /\ s_owner (sess s 2) = 1 /\ s_closed (sess s 2) = false     (* live session in record 1 *)
  /\ table s 1%N = Some 1                                      (* the panel knows record 1 only *)
  /\ ~ owned s.
Proof.
  destruct (run cfg_now (init db1 10%Z) orphan_trace) as [s|] eqn:E; [|vm_compute in E; discriminate].
  exists s. split; [exists orphan_trace; exact E|].
  assert (H : quiescent_check s = true /\ nrec s = 2 /\ r_uid (recs s 0) = 1%N /\ r_uid (recs s 1) = 1%N
              /\ r_bypass (recs s 0) = false
              /\ s_owner (sess s 1) = 0 /\ s_closed (sess s 1) = false
              /\ s_owner (sess s 2) = 1 /\ s_closed (sess s 2) = false
              /\ table s 1%N = Some 1 /\ (1 <? nses s) = true /\ owned1 s 1 = false).
  { vm_compute in E. injection E as <-. vm_compute. repeat split; reflexivity. }
  destruct H as (H1&H2&H3&H4&H5&H6&H7&H8&H9&H10&H11&H12).
  repeat (split; [assumption|]).
  split; [now apply quiescent_check_sound|]. repeat (split; [assumption|]).
  apply Nat.ltb_lt in H11. eapply owned1_false; eauto.
Qed.

Lemma ownership_refuted : ~ ownership cfg_now.
Proof.
  intro H. destruct orphan_state as [s (HR&HQ&_&_&_&_&_&_&_&_&_&Hn)].
  apply Hn. apply (H _ _ _ HR HQ).
Qed.

(* the same schedule on the repaired model: thread 1 is sent back to look the user up again *)
Lemma orphan_trace_patched_owned :
  match run cfg_patched (init db1 10%Z) (orphan_trace ++ runs 1 4) with
  | Some s => quiescent_check s && forallb (owned1 s) (seq 0 (nses s)) && Nat.eqb (nrec s) 2
  | None => false
  end = true.
Proof. vm_compute. reflexivity. Qed.
