(* Agreement on the session key for EVERY connection of a session, not only the first (C06). *)
From Coq Require Import NArith ZArith List Bool Arith Lia.
From Cloak Require Import Model.HelloGrammar Model.Auth Proofs.Auth.
From Cloak Require Import Model.SessionKey.
Import ListNotations.
Local Open Scope N_scope.

Lemma join_key_is_table_key : forall t sid fresh,
  tbl_get sid (snd (join_session t sid fresh)) = Some (fst (join_session t sid fresh)).
Proof.
  intros t sid fresh. unfold join_session. destruct (tbl_get sid t) eqn:E; cbn [fst snd]; [exact E|].
  cbn [tbl_get]. rewrite N.eqb_refl. reflexivity.
Qed.

Lemma join_keeps_others : forall t sid fresh sid', tbl_get sid' t <> None ->
  tbl_get sid' (snd (join_session t sid fresh)) = tbl_get sid' t.
Proof.
  intros t sid fresh sid' H. unfold join_session. destruct (tbl_get sid t) eqn:E; cbn [snd]; [reflexivity|].
  cbn [tbl_get]. destruct (sid =? sid') eqn:Es; [|reflexivity]. apply N.eqb_eq in Es. subst. congruence.
Qed.

Lemma table_after_keeps : forall conns t sid k, tbl_get sid t = Some k -> tbl_get sid (table_after t conns) = Some k.
Proof.
  induction conns as [|[s f] rest IH]; intros t sid k Ht; cbn [table_after]; [exact Ht|].
  apply IH. rewrite join_keeps_others by congruence. exact Ht.
Qed.

(* the key a connection's reply carries is the one the table holds for its session id once all connections are in:
   set by the first connection of that id (or there from the start), untouched by everything later *)
Lemma key_is_final_table_key : forall conns t j sid fresh, nth_error conns j = Some (sid, fresh) ->
  exists k, nth_error (serve_keys t conns) j = Some k /\ tbl_get sid (table_after t conns) = Some k.
Proof.
  induction conns as [|[s f] rest IH]; intros t j sid fresh Hj; [destruct j; discriminate|].
  cbn [serve_keys table_after]. pose proof (join_key_is_table_key t s f) as Hk.
  destruct (join_session t s f) as [k0 t']. cbn [fst snd] in *.
  destruct j as [|j]; cbn [nth_error] in *; [|eapply IH; exact Hj].
  inversion Hj; subst s f. exists k0. split; [reflexivity|]. apply table_after_keeps. exact Hk.
Qed.

(* THE session-key theorem: two connections presenting the same session id carry the same key, whatever fresh keys
   they drew and whatever happened in between - the key the session holds *)
Theorem same_session_same_key : forall conns t i j sid f1 f2,
  nth_error conns i = Some (sid, f1) -> nth_error conns j = Some (sid, f2) ->
  nth_error (serve_keys t conns) i = nth_error (serve_keys t conns) j /\
  exists k, nth_error (serve_keys t conns) j = Some k /\ tbl_get sid (table_after t conns) = Some k.
Proof.
  intros conns t i j sid f1 f2 Hi Hj.
  destruct (key_is_final_table_key conns t i sid f1 Hi) as (k & Ei & Ti).
  destruct (key_is_final_table_key conns t j sid f2 Hj) as (k' & Ej & Tj).
  split; [congruence | exists k'; auto].
Qed.

(* a NEW session id gets the fresh key its first connection drew *)
Theorem new_session_fresh_key : forall t sid fresh rest, tbl_get sid t = None ->
  nth_error (serve_keys t ((sid, fresh) :: rest)) 0 = Some fresh.
Proof. intros t sid fresh rest H. cbn [serve_keys]. unfold join_session. rewrite H. reflexivity. Qed.

(* where the keys of the table come from: they were there, or some connection drew them *)
Lemma table_after_origin : forall conns t sid k, tbl_get sid (table_after t conns) = Some k ->
  tbl_get sid t = Some k \/ In (sid, k) conns.
Proof.
  induction conns as [|[s f] rest IH]; intros t sid k H; cbn [table_after] in H; [auto|].
  apply IH in H as [H|H]; [|right; right; exact H]. unfold join_session in H.
  destruct (tbl_get s t); cbn [snd tbl_get] in H; [auto|].
  destruct (N.eqb_spec s sid) as [->|_]; [inversion H; right; left; reflexivity | auto].
Qed.

Section AgreementPerConnection.
  Variable dh : list N -> list N -> option (list N).
  Variable pub : list N -> list N.
  Variable seal : list N -> list N -> list N -> list N -> list N.
  Variable open : list N -> list N -> list N -> list N -> option (list N).
  Hypothesis dh_comm : forall a b, dh a (pub b) = dh b (pub a).
  Hypothesis pub_length : forall a, length (pub a) = 32%nat.
  Hypothesis open_seal : forall k n p a, open k n (seal k n p a) a = Some p.
  Hypothesis seal_length : forall k n p a, length (seal k n p a) = (length p + 16)%nat.

  (* everything one connection brings along *)
  Record conn := mkConn {
    c_sk : skeleton; c_info : info; c_cnow : Z; c_snow : Z; c_ephPv : list N;
    c_fresh : list N; c_nonce : list N; c_filler : list N; c_cert : list N }.
  Definition conn_ok (staticPv : list N) (c : conn) : Prop :=
    wf_skeleton (c_sk c) = true /\ info_in_domain (c_info c) /\ in_window (client_ts (c_cnow c)) (c_snow c) = true /\
    (exists secret, dh (c_ephPv c) (pub staticPv) = Some secret) /\
    length (c_fresh c) = 32%nat /\ length (c_nonce c) = 12%nat /\ (length (c_cert c) <= 1024)%nat.

  (* Agreement for EVERY connection of EVERY session of one user: the j-th connection's client ends up with the key of
     the session it joined - the key the server's session table holds for its session id after all of them - be it the
     first connection of that session or a later one *)
  Theorem agreement_every_connection_tls : forall staticPv (conns : list conn),
    Forall (conn_ok staticPv) conns ->
    let keys := serve_keys [] (map (fun c => (i_sid (c_info c), c_fresh c)) conns) in
    let table := table_after [] (map (fun c => (i_sid (c_info c), c_fresh c)) conns) in
    forall j c, nth_error conns j = Some c ->
    exists key hello shared sid,
      nth_error keys j = Some key /\ tbl_get (i_sid (c_info c)) table = Some key /\
      client_first_packet_tls dh pub seal (c_sk c) (c_info c) (client_ts (c_cnow c)) (c_ephPv c) (pub staticPv) = Some (hello, shared) /\
      server_process_tls dh open hello staticPv (c_snow c) = Accept (c_info c) shared sid /\
      client_finish_tls open shared (server_reply_tls seal shared sid key (c_nonce c) (c_filler c) (c_cert c)) = Some key.
  Proof.
    intros staticPv conns Hall keys table j c Hj.
    set (pairs := map (fun c => (i_sid (c_info c), c_fresh c)) conns) in *.
    assert (nth_error pairs j = Some (i_sid (c_info c), c_fresh c)) as Hp.
    { subst pairs. rewrite nth_error_map, Hj. reflexivity. }
    destruct (key_is_final_table_key pairs [] j _ _ Hp) as (key & Hk & Ht).
    rewrite Forall_forall in Hall.
    assert (length key = 32%nat) as Lk.
    { destruct (table_after_origin _ _ _ _ Ht) as [E|Hin]; [discriminate|].
      apply in_map_iff in Hin as (c' & Ec & Hc'). inversion Ec. apply (Hall c' Hc'). }
    destruct (Hall c (nth_error_In _ _ Hj)) as (Hsk & Hd & Hw & (secret & Hdh) & _ & Ln & Lc).
    destruct (agreement_tls dh pub seal open dh_comm pub_length open_seal seal_length
                (c_sk c) (c_info c) (c_cnow c) (c_snow c) (c_ephPv c) staticPv secret key (c_nonce c) (c_filler c) (c_cert c)
                Hsk Hd Hw Hdh Lk Ln Lc) as (hello & shared & sid & A & B & C).
    exists key, hello, shared, sid. repeat split; assumption.
  Qed.

  (* hence two connections of one session agree with each other *)
  Corollary connections_of_a_session_share_the_key : forall (conns : list conn) i j ci cj,
    nth_error conns i = Some ci -> nth_error conns j = Some cj -> i_sid (c_info ci) = i_sid (c_info cj) ->
    let keys := serve_keys [] (map (fun c => (i_sid (c_info c), c_fresh c)) conns) in
    nth_error keys i = nth_error keys j.
  Proof.
    intros conns i j ci cj Hi Hj Hs keys.
    apply (same_session_same_key _ [] i j (i_sid (c_info ci)) (c_fresh ci) (c_fresh cj)).
    - rewrite nth_error_map, Hi. reflexivity.
    - rewrite nth_error_map, Hj, Hs. reflexivity.
  Qed.
End AgreementPerConnection.
