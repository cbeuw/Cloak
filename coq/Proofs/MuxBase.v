(* Facts about Model/Mux.v that hold without any invariant: association lists, record projections,
   the connection-closing loop, one equation of step_core per label; for each building block that
   branches (switchboard.send, obfuscateAndSend, Session.Close, closeStream) its case analysis,
   events included, on which every later lemma about the block splits; and the elementary moves
   (atom, moves): every building block, hence every label, is a sequence of moves of a few kinds,
   so that an invariant or a frame property is proved once per kind of move (moves_inv). *)
From Coq Require Import NArith ZArith List Bool Lia.
From Coq Require Import ZifyN ZifyBool.
From Cloak Require Import Model.Reorder Model.Mux.
Import ListNotations.
Local Open Scope N_scope.

Lemma lookup_update_eq {A} k (v : A) l : lookup k (update k v l) = Some v.
Proof. induction l as [|[k' v'] t IH]; cbn; [now rewrite N.eqb_refl|].
  destruct (k =? k') eqn:E; cbn; rewrite ?N.eqb_refl, ?E; auto. Qed.
Lemma lookup_update_neq {A} k k' (v : A) l : k <> k' -> lookup k (update k' v l) = lookup k l.
Proof. intros Hne. induction l as [|[k2 v2] t IH]; cbn.
  - destruct (k =? k') eqn:E; [lia|reflexivity].
  - destruct (k' =? k2) eqn:E2; cbn.
    + assert (k' = k2) by lia; subst. destruct (k =? k2) eqn:E; [lia|reflexivity].
    + destruct (k =? k2); auto. Qed.
Lemma lookup_update {A} k k' (v : A) l :
  lookup k (update k' v l) = if k =? k' then Some v else lookup k l.
Proof. destruct (k =? k') eqn:E.
  - assert (k = k') by lia; subst. apply lookup_update_eq.
  - apply lookup_update_neq. lia. Qed.

Lemma update_update {A} k (v1 v2 : A) l : update k v2 (update k v1 l) = update k v2 l.
Proof.
  induction l as [|[k' v'] t IH]; cbn; [now rewrite N.eqb_refl|].
  destruct (k =? k') eqn:E; cbn; [now rewrite N.eqb_refl|]. now rewrite E, IH.
Qed.

Lemma side_eqb_refl s : side_eqb s s = true. Proof. now destruct s. Qed.
Lemma side_eqb_eq a b : side_eqb a b = true <-> a = b.
Proof. destruct a, b; cbn; split; intros H; try reflexivity; discriminate. Qed.
Lemma side_eqb_other x : side_eqb x (other x) = false. Proof. now destruct x. Qed.
Lemma side_eqb_other' x : side_eqb (other x) x = false. Proof. now destruct x. Qed.
Lemma side_cases x s : x = s \/ x = other s. Proof. destruct x, s; auto. Qed.
Lemma side_dec (a b : side) : {a = b} + {a <> b}. Proof. decide equality. Qed.
Lemma other_other s : other (other s) = s. Proof. now destruct s. Qed.
Lemma other_neq s : other s <> s. Proof. now destruct s. Qed.

Lemma sess_set_same y s se : sess (set_sess y s se) s = se.
Proof. now destruct s. Qed.
Lemma sess_set_other y s se : sess (set_sess y s se) (other s) = sess y (other s).
Proof. now destruct s. Qed.
Lemma sess_set y s s' se : sess (set_sess y s se) s' = if side_eqb s s' then se else sess y s'.
Proof. now destruct s, s'. Qed.
Lemma sess_set_conns y cs s : sess (set_conns y cs) s = sess y s. Proof. now destruct s. Qed.
Lemma sess_set_pend y p s : sess (set_pend y p) s = sess y s. Proof. now destruct s. Qed.
Lemma sess_set_now y t s : sess (set_now y t) s = sess y s. Proof. now destruct s. Qed.
Lemma conns_set_sess y s se : sy_conns (set_sess y s se) = sy_conns y. Proof. now destruct s. Qed.
Lemma pend_set_sess y s se : sy_pend (set_sess y s se) = sy_pend y. Proof. now destruct s. Qed.
Lemma now_set_sess y s se : sy_now (set_sess y s se) = sy_now y. Proof. now destruct s. Qed.

Lemma nthN_setN_eq {A} n (v : A) l x : nthN n l = Some x -> nthN n (setN n v l) = Some v.
Proof. revert n; induction l as [|a t IH]; intros [|n]; cbn; try discriminate; auto. Qed.
Lemma nthN_setN_neq {A} n m (v : A) l : n <> m -> nthN n (setN m v l) = nthN n l.
Proof. revert n m; induction l as [|a t IH]; intros [|n] [|m] H; cbn; auto; try congruence. Qed.
Lemma length_setN {A} n (v : A) l : length (setN n v l) = length l.
Proof. revert n; induction l as [|a t IH]; intros [|n]; cbn; auto. Qed.
Lemma nthN_Some_lt {A} n (l : list A) x : nthN n l = Some x -> (n < length l)%nat.
Proof. revert n; induction l as [|a t IH]; intros [|n]; cbn; try discriminate; try lia.
  intros H. apply IH in H. lia. Qed.
Lemma nthN_lt_Some {A} n (l : list A) : (n < length l)%nat -> exists x, nthN n l = Some x.
Proof. revert n; induction l as [|a t IH]; intros [|n]; cbn; try lia; eauto.
  intros H. apply IH. lia. Qed.
Lemma map_setN_same {A B} (f : A -> B) n v a l : nthN n l = Some a -> f v = f a -> map f (setN n v l) = map f l.
Proof. revert n; induction l as [|x t IH]; intros [|n] Hn Hf; cbn in *; try discriminate.
  - injection Hn as ->. now rewrite Hf.
  - now rewrite (IH _ Hn Hf). Qed.
Lemma map_ext_nthN {A B} (f : A -> B) l l' :
  length l' = length l -> (forall n a, nthN n l = Some a -> exists b, nthN n l' = Some b /\ f b = f a) ->
  map f l' = map f l.
Proof.
  revert l'; induction l as [|a t IH]; intros [|b t'] Hl H; try discriminate; [reflexivity|]. cbn.
  destruct (H 0%nat a eq_refl) as (b' & Hb & E). injection Hb as <-. rewrite E. f_equal.
  apply IH; [now injection Hl|]. intros n x Hx. exact (H (S n) x Hx).
Qed.

Lemma close_ends_length s pool cs : length (fst (close_ends s pool cs)) = length cs.
Proof. revert cs; induction pool as [|c t IH]; intros cs; cbn; [reflexivity|].
  destruct (nthN (N.to_nat c) cs) as [cn|] eqn:E; [|apply IH].
  destruct (conn_closed_end cn s); [apply IH|].
  destruct (close_ends s t (setN (N.to_nat c) (conn_close_end cn s) cs)) as [cs' evs] eqn:E2. cbn.
  specialize (IH (setN (N.to_nat c) (conn_close_end cn s) cs)). rewrite E2 in IH. cbn in IH.
  now rewrite IH, length_setN. Qed.

(* what closeAll of side s may do to a connection: close its own end, nothing else *)
Definition conn_le (s : side) (a b : conn) : Prop :=
  c_toA b = c_toA a /\ c_toB b = c_toB a /\ c_failed b = c_failed a /\
  conn_closed_end b (other s) = conn_closed_end a (other s) /\
  (conn_closed_end a s = true -> conn_closed_end b s = true).
Lemma conn_le_refl s a : conn_le s a a. Proof. unfold conn_le; tauto. Qed.
Lemma conn_le_trans s a b c : conn_le s a b -> conn_le s b c -> conn_le s a c.
Proof. unfold conn_le; intuition congruence. Qed.
Lemma conn_le_close s a : conn_le s a (conn_close_end a s).
Proof. destruct s, a; unfold conn_le; cbn; tauto. Qed.
Lemma conn_close_end_closed s a : conn_closed_end (conn_close_end a s) s = true.
Proof. now destruct s, a. Qed.

(* closeAll's loop: every connection is only changed as conn_le allows, and the pooled ones end up closed *)
Lemma close_ends_le s pool : forall cs n a,
  nthN n cs = Some a -> exists b, nthN n (fst (close_ends s pool cs)) = Some b /\ conn_le s a b.
Proof.
  induction pool as [|c t IH]; intros cs n a Hn; cbn; [exists a; split; [exact Hn|apply conn_le_refl]|].
  destruct (nthN (N.to_nat c) cs) as [cn|] eqn:E; [|now apply IH]. destruct (conn_closed_end cn s); [now apply IH|].
  specialize (IH (setN (N.to_nat c) (conn_close_end cn s) cs) n). destruct (close_ends s t _) as [cs' evs]. cbn in *.
  destruct (Nat.eq_dec n (N.to_nat c)) as [->|Hne]; [|apply IH; now rewrite nthN_setN_neq].
  rewrite E in Hn. injection Hn as <-. destruct (IH _ (nthN_setN_eq _ _ _ _ E)) as (b & Hb & Hle).
  exists b. split; [exact Hb|]. eapply conn_le_trans; [apply conn_le_close|exact Hle].
Qed.
Lemma close_ends_closed s pool : forall cs c a,
  In c pool -> nthN (N.to_nat c) cs = Some a ->
  exists b, nthN (N.to_nat c) (fst (close_ends s pool cs)) = Some b /\ conn_closed_end b s = true.
Proof.
  induction pool as [|c0 t IH]; intros cs c a Hin Hn; [destruct Hin|]. destruct Hin as [<-|Hin]; cbn.
  - (* its turn: closed now, and what follows keeps it closed *)
    rewrite Hn. destruct (conn_closed_end a s) eqn:Ecl.
    + destruct (close_ends_le s t cs _ _ Hn) as (b & Hb & Hle). exists b. split; [exact Hb|apply Hle, Ecl].
    + pose proof (close_ends_le s t _ _ _ (nthN_setN_eq _ (conn_close_end a s) _ _ Hn)) as (b & Hb & Hle).
      destruct (close_ends s t _) as [cs' e]. exists b. split; [exact Hb|apply Hle, conn_close_end_closed].
  - destruct (nthN (N.to_nat c0) cs) as [cn|] eqn:E; [|eapply IH; eauto]. destruct (conn_closed_end cn s); [eapply IH; eauto|].
    assert (exists a', nthN (N.to_nat c) (setN (N.to_nat c0) (conn_close_end cn s) cs) = Some a') as [a' Ha'].
    { destruct (Nat.eq_dec (N.to_nat c) (N.to_nat c0)) as [Heq|Hne];
        [rewrite Heq; eexists; eapply nthN_setN_eq; eauto|exists a; now rewrite nthN_setN_neq]. }
    specialize (IH _ c a' Hin Ha'). destruct (close_ends s t _) as [cs' e]. exact IH.
Qed.

(* step_core, one equation per label, so that proofs never unfold the fuelled loops *)
Lemma step_core_open y s ch : step_core y (LOpen s) ch = open_stream y s.
Proof. reflexivity. Qed.
Lemma step_core_write y s sid data ch : step_core y (LWrite s sid data) ch = stream_write y s sid data ch.
Proof. reflexivity. Qed.
Lemma step_core_read y s sid k ch : step_core y (LRead s sid k) ch =
  if has_pending_read (sy_pend y) s sid then (y, [ERet R_ERR 9 []])
  else match try_read y s sid k with
       | Some (y1, rc, d) => (y1, [ERet rc (N.of_nat (length d)) d])
       | None => (set_pend y (sy_pend y ++ [PRead s sid 1]), [ERet R_BLOCKED 0 []])
       end.
Proof. reflexivity. Qed.
Lemma step_core_accept y s ch : step_core y (LAccept s) ch =
  if se_closed (sess y s) then (y, [ERet R_BROKEN_SESSION 0 []])
  else match try_accept y s with
       | Some (y1, rc, id) => (y1, [ERet rc id []])
       | None => if has_pending_accept (sy_pend y) s then (y, [ERet R_ERR 9 []])
                 else (set_pend y (sy_pend y ++ [PAccept s]), [ERet R_BLOCKED 0 []])
       end.
Proof. reflexivity. Qed.
Lemma step_core_close_stream y s sid ch : step_core y (LCloseStream s sid) ch =
  let '(y1, _, evs, rc) := close_stream y s sid true ch in (y1, evs ++ [ERet rc 0 []]).
Proof. reflexivity. Qed.
Lemma step_core_close_session y s ch : step_core y (LCloseSession s) ch =
  let '(y1, _, evs, rc) := session_close y s ch in (y1, evs ++ [ERet rc 0 []]).
Proof. reflexivity. Qed.
Lemma step_core_deliver y s c ch : step_core y (LDeliver s c) ch =
  match nthN (N.to_nat c) (sy_conns y) with
  | None => (y, [ERet R_ERR 0 []])
  | Some cn =>
      if conn_closed_end cn s || c_failed cn then (y, [ERet R_ERR 1 []])
      else match conn_q cn s with
      | fr :: q =>
          let '(y2, _, evs) := recv_frame (set_conns y (setN (N.to_nat c) (conn_set_q cn s q) (sy_conns y))) s fr ch in
          (y2, evs ++ [ERet R_OK 0 []])
      | [] =>
          if conn_closed_end cn (other s) then
            let '(y1, evs) := deplex_error y s c in (y1, evs ++ [ERet R_OK 1 []])
          else (y, [ERet R_ERR 2 []])
      end
  end.
Proof. reflexivity. Qed.
Lemma step_core_fail y c ch : step_core y (LFail c) ch =
  match nthN (N.to_nat c) (sy_conns y) with
  | None => (y, [ERet R_ERR 0 []])
  | Some cn =>
      let y0 := set_conns y (setN (N.to_nat c) (mkC [] [] (c_clA cn) (c_clB cn) true) (sy_conns y)) in
      let '(y1, e1) := if conn_closed_end cn SA || c_failed cn then (y0, []) else deplex_error y0 SA c in
      let '(y2, e2) := if conn_closed_end cn SB || c_failed cn then (y1, []) else deplex_error y1 SB c in
      (y2, e1 ++ e2 ++ [ERet R_OK 0 []])
  end.
Proof. reflexivity. Qed.
Lemma step_core_tick y d ch : step_core y (LTick d) ch =
  let '(y1, ch1, e1) := fire_timers 64 (set_now y (sy_now y + d)%Z) SA ch in
  let '(y2, _, e2) := fire_timers 64 y1 SB ch1 in
  (y2, e1 ++ e2 ++ [ERet R_OK 0 []]).
Proof. reflexivity. Qed.
Lemma step_core_break y c ch : step_core y (LBreak c) ch =
  match nthN (N.to_nat c) (sy_conns y) with
  | None => (y, [ERet R_ERR 0 []])
  | Some cn => (set_conns y (setN (N.to_nat c) (mkC [] [] (c_clA cn) (c_clB cn) true) (sy_conns y)), [ERet R_OK 0 []])
  end.
Proof. reflexivity. Qed.
Lemma step_core_notice y s c ch : step_core y (LNotice s c) ch =
  match nthN (N.to_nat c) (sy_conns y) with
  | None => (y, [ERet R_ERR 0 []])
  | Some cn =>
      if c_failed cn && negb (conn_closed_end cn s) then
        let '(y1, evs) := deplex_error y s c in (y1, evs ++ [ERet R_OK 0 []])
      else (y, [ERet R_ERR 1 []])
  end.
Proof. reflexivity. Qed.
Global Opaque step_core.

(* the delivery half of recv_frame, by name *)
Definition deliver (y0 : sys) (s : side) (fr : wframe) (ch : list N) : sys * list N * list ev :=
  match lookup (w_sid fr) (se_objs (sess y0 s)) with
  | None => (y0, ch, [])
  | Some st =>
      let '(rb', tbc, _) := rb_write (st_rb st) (mkF (w_seq fr) (negb (w_cl fr =? 0)) (w_pay fr)) in
      let y1 := set_sess y0 s (upd_objs (sess y0 s) (update (w_sid fr) (st_set_rb st rb') (se_objs (sess y0 s)))) in
      if tbc then let '(y2, ch2, evs2, _) := close_stream y1 s (w_sid fr) false ch in (y2, ch2, evs2)
      else (y1, ch, [])
  end.

(* a stream is added to the table: by OpenStream ([n] = the next id) or by the first frame of a new
   stream ([q] = the accept queue with the id appended) *)
Definition add_stream (se : session) (id : N) (q : list N) (n : N) : session :=
  upd_count (upd_acceptq (upd_tab (upd_objs (upd_nextsid se n) (update id new_stream (se_objs se)))
                                   (update id true (se_tab se))) q) (incr32 (se_count se)).

Lemma recv_frame_eq y s fr ch : recv_frame y s fr ch =
  if w_cl fr =? 2 then let '(y', evs) := passive_close y s in (y', ch, evs)
  else if se_closed (sess y s) then (y, ch, [])
  else match lookup (w_sid fr) (se_tab (sess y s)) with
       | Some false => (y, ch, [])
       | Some true => deliver y s fr ch
       | None => deliver (set_sess y s (add_stream (sess y s) (w_sid fr) (se_acceptq (sess y s) ++ [w_sid fr])
                                                   (se_nextsid (sess y s)))) s fr ch
       end.
Proof. reflexivity. Qed.

(* What a move may do beyond routine bookkeeping: set the closed flag of stream [id]; change the
   table without the check that keeps the stream counter right (add an id that may be there, forget
   an entry that may not be live); tear the session down.  Every lemma of the walk below takes the
   permissions [P] as a parameter: the invariants that do not look at the counter (WF, CBs, the
   protected object of MuxOpen) run it with everything permitted; the counting invariant (MuxCount)
   denies [Unchecked] and has to supply the facts asked for in its place; a frame property grants
   only what the block in question needs. *)
Inductive perm := Mark (id : N) | Unchecked | Close.

(* an open object has a live entry: what entitles closeStream to decrement the counter *)
Definition open_has_entry (se : session) (id : N) : Prop :=
  forall st, lookup id (se_objs se) = Some st -> st_closed st = false ->
             se_closed se = false -> lookup id (se_tab se) = Some true.

(* what a session does to itself *)
Inductive smove (P : perm -> Prop) (se : session) : session -> Prop :=
| sm_quiet q n ts : smove P se (upd_timers (upd_nextsid (upd_acceptq se q) n) ts)
| sm_obj id st st' :
    lookup id (se_objs se) = Some st ->
    st_closed st' = st_closed st -> st_wcl st' = st_wcl st -> pclosed (st_rb st') = pclosed (st_rb st) ->
    smove P se (upd_objs se (update id st' (se_objs se)))
| sm_mark id st w :
    P (Mark id) -> lookup id (se_objs se) = Some st -> st_closed st = false ->
    smove P se (upd_objs se (update id (mkS (st_seq st) w true (rb_close (st_rb st))) (se_objs se)))
| sm_forget id st :
    lookup id (se_objs se) = Some st -> st_closed st = true ->
    (se_closed se = false -> lookup id (se_tab se) = Some true) \/ P Unchecked ->
    smove P se (upd_count (upd_tab se (update id false (se_tab se))) (decr32 (se_count se)))
| sm_add id q n :
    se_closed se = false -> lookup id (se_tab se) = None \/ P Unchecked ->
    smove P se (add_stream se id q n).

(* one move, booked on side [s]: a_sess and the teardowns are what side s does to itself; a_pend,
   a_now and a_conn (the environment's part: blocked calls, the clock, one connection changed with
   closed ends staying closed) touch no session and are booked on whichever side runs the block.
   Teardown (passive_close, session_close) is one move: between its
   "closed := true" and "broken := true" neither "broken -> closed" nor "closed -> broken" is
   stable, so every invariant looks at its end state only. *)
Inductive atom (s : side) (P : perm -> Prop) (y : sys) : sys -> Prop :=
| a_pend p : atom s P y (set_pend y p)
| a_now t : atom s P y (set_now y t)
| a_conn n cn cn' :
    nthN n (sy_conns y) = Some cn ->
    (c_clA cn = true -> c_clA cn' = true) -> (c_clB cn = true -> c_clB cn' = true) ->
    atom s P y (set_conns y (setN n cn' (sy_conns y)))
| a_sess se' : smove P (sess y s) se' -> atom s P y (set_sess y s se')
| a_passive_close y' evs : P Close -> passive_close y s = (y', evs) -> atom s P y y'
| a_session_close ch y' ch' evs rc : P Close -> session_close y s ch = (y', ch', evs, rc) -> atom s P y y'.

(* [A]: the sides that move; [P x]: what side x may do *)
Inductive moves (A : side -> Prop) (P : side -> perm -> Prop) : sys -> sys -> Prop :=
| moves_nil y : moves A P y y
| moves_cons s y y1 y2 : A s -> atom s (P s) y y1 -> moves A P y1 y2 -> moves A P y y2.

Lemma moves_one (A : side -> Prop) P s y y' : A s -> atom s (P s) y y' -> moves A P y y'.
Proof. intros Hs Ha. eapply moves_cons; [exact Hs|exact Ha|apply moves_nil]. Qed.
Lemma moves_trans (A : side -> Prop) P a b c : moves A P a b -> moves A P b c -> moves A P a c.
Proof. induction 1; [auto|]. intros Hc. eapply moves_cons; eauto. Qed.

Lemma moves_inv (A : side -> Prop) P (I : sys -> Prop) :
  (forall s y y', A s -> atom s (P s) y y' -> I y -> I y') ->
  forall y y', moves A P y y' -> I y -> I y'.
Proof. intros Ha y y' Hm. induction Hm; [auto|]. intros Hi. eauto. Qed.

Lemma smove_fields P se se' : smove P se se' ->
  se_closed se' = se_closed se /\ se_broken se' = se_broken se /\ se_pool se' = se_pool se /\
  se_singleplex se' = se_singleplex se /\ se_unit se' = se_unit se.
Proof. destruct 1; repeat split. Qed.

Lemma rb_write_pclosed b f : pclosed (fst (fst (rb_write b f))) = pclosed b.
Proof.
  unfold rb_write. destruct (is_nil (heap b) && (seq f =? next b)).
  - destruct (closing f); reflexivity.
  - destruct (seq f <? next b); [reflexivity|].
    destruct (drain (pclosed b) (insert f (heap b)) (next b) (pipe b)) as [[[h nx] p] c]. reflexivity.
Qed.
Lemma rb_read_pclosed b k : pclosed (fst (rb_read b k)) = pclosed b.
Proof. unfold rb_read. destruct (pipe b); reflexivity. Qed.

Lemma conn_set_q_flags cn s q :
  c_clA (conn_set_q cn s q) = c_clA cn /\ c_clB (conn_set_q cn s q) = c_clB cn /\
  c_failed (conn_set_q cn s q) = c_failed cn.
Proof. destruct s, cn; cbn; auto. Qed.
Lemma conn_le_mono s a b : conn_le s a b ->
  (c_clA a = true -> c_clA b = true) /\ (c_clB a = true -> c_clB b = true).
Proof. destruct s; unfold conn_le; cbn; intros (_ & _ & _ & H1 & H2); split; intros H; try (apply H2; exact H); congruence. Qed.

Lemma close_all_other y s y' evs : close_all y s = (y', evs) -> sess y' (other s) = sess y (other s).
Proof.
  unfold close_all. intros H. destruct (se_broken (sess y s)); [injection H as <- <-; reflexivity|].
  destruct (close_ends _ _ _) as [cs e]. injection H as <- <-.
  now rewrite sess_set_conns, sess_set_other.
Qed.
Lemma passive_close_other y s y' evs : passive_close y s = (y', evs) -> sess y' (other s) = sess y (other s).
Proof.
  unfold passive_close. intros H. destruct (close_session_core (sess y s)) as [se ok].
  destruct ok; [|injection H as <- <-; reflexivity].
  apply close_all_other in H. now rewrite H, sess_set_other.
Qed.
Lemma close_session_core_spec se se' ok :
  close_session_core se = (se', ok) -> se_closed se' = true /\ (ok = false -> se' = se).
Proof.
  unfold close_session_core. destruct (se_closed se) eqn:E; [intros H; injection H as <- <-; auto|].
  destruct (sweep _ _ _) as [[t o] c]. intros H; injection H as <- <-. split; [reflexivity|discriminate].
Qed.
Lemma close_all_closed y s y' evs x : close_all y s = (y', evs) -> se_closed (sess y' x) = se_closed (sess y x).
Proof.
  unfold close_all. intros H. destruct (se_broken (sess y s)); [injection H as <- <-; reflexivity|].
  destruct (close_ends _ _ _) as [cs e]. injection H as <- <-.
  rewrite sess_set_conns. destruct (side_cases x s) as [->| ->]; [now rewrite sess_set_same|now rewrite sess_set_other].
Qed.
Lemma passive_close_closed y s y' evs :
  passive_close y s = (y', evs) -> se_closed (sess y' s) = true.
Proof.
  unfold passive_close. intros H. destruct (close_session_core (sess y s)) as [se ok] eqn:Ecs.
  destruct (close_session_core_spec _ _ _ Ecs) as [Hc He]. destruct ok.
  - rewrite (close_all_closed _ _ _ _ s H). now rewrite sess_set_same.
  - injection H as <- _. now rewrite <- (He eq_refl).
Qed.

(* switchboard.send: nothing happens, or the session is torn down, or the frame is queued *)
Lemma sb_send_cases y s fr p y' evs rc :
  sb_send y s fr p = (y', evs, rc) ->
  (y' = y /\ rc = 1 /\ evs = []) \/ (passive_close y s = (y', evs) /\ rc = 2) \/
  (exists cn, nthN (N.to_nat p) (sy_conns y) = Some cn /\ rc = 0 /\ evs = [EFrame s p fr] /\
     y' = set_conns y (setN (N.to_nat p) (conn_set_q cn (other s) (conn_q cn (other s) ++ [fr])) (sy_conns y))).
Proof.
  unfold sb_send. intros H.
  destruct (se_broken (sess y s)); [injection H as <- <- <-; auto|].
  destruct (se_pool (sess y s)); [injection H as <- <- <-; auto|].
  destruct (nthN (N.to_nat p) (sy_conns y)) as [cn|]; [|injection H as <- <- <-; auto].
  destruct (_ || _).
  - destruct (passive_close y s) as [y1 e1]. injection H as <- <- <-. auto.
  - injection H as <- <- <-. right. right. exists cn. auto.
Qed.
Lemma sb_send_other y s fr p y' evs rc : sb_send y s fr p = (y', evs, rc) -> sess y' (other s) = sess y (other s).
Proof.
  intros H. destruct (sb_send_cases _ _ _ _ _ _ _ H) as [[-> _]|[[Epc _]|(cn & _ & _ & _ & ->)]];
    [reflexivity|eapply passive_close_other; eauto|apply sess_set_conns].
Qed.

(* Session.Close, step by step *)
Lemma session_close_steps y s ch y' ch' evs rc :
  session_close y s ch = (y', ch', evs, rc) ->
  (y' = y /\ se_closed (sess y s) = true /\ evs = []) \/
  exists se y2 e2 rc2 e3, close_session_core (sess y s) = (se, true) /\
    sb_send (set_sess y s se) s (mkW 4294967295 0 2 []) (fst (hd_pick ch)) = (y2, e2, rc2) /\
    close_all y2 s = (y', e3) /\ evs = e2 ++ e3.
Proof.
  unfold session_close. intros H. destruct (close_session_core (sess y s)) as [se ok] eqn:Ecs.
  destruct ok; cbn [negb] in H.
  - right. destruct (hd_pick ch) as [c ch0]. destruct (sb_send _ s _ c) as [[y2 e2] rc2] eqn:Es.
    destruct (close_all y2 s) as [y3 e3] eqn:Eca. exists se, y2, e2, rc2, e3.
    destruct (rc2 =? 0); [|destruct (rc2 =? 1)]; injection H as <- _ <- _; auto.
  - left. injection H as <- _ <- _. destruct (close_session_core_spec _ _ _ Ecs) as [Hc He].
    now rewrite <- (He eq_refl).
Qed.
Lemma session_close_other y s ch y' ch' evs rc :
  session_close y s ch = (y', ch', evs, rc) -> sess y' (other s) = sess y (other s).
Proof.
  intros H. destruct (session_close_steps _ _ _ _ _ _ _ H) as [[-> _]|(se & y2 & e2 & rc2 & e3 & _ & Es & Eca & _)]; [reflexivity|].
  apply sb_send_other in Es. apply close_all_other in Eca. rewrite sess_set_other in Es. congruence.
Qed.
Lemma session_close_closed y s ch y' ch' evs rc :
  session_close y s ch = (y', ch', evs, rc) -> se_closed (sess y' s) = true.
Proof.
  intros H. destruct (session_close_steps _ _ _ _ _ _ _ H) as [(-> & Hc & _)|(se & y2 & e2 & rc2 & e3 & Ecs & Es & Eca & _)]; [exact Hc|].
  destruct (close_session_core_spec _ _ _ Ecs) as [Hc _]. rewrite (close_all_closed _ _ _ _ s Eca).
  destruct (sb_send_cases _ _ _ _ _ _ _ Es) as [[-> _]|[[Epc _]|(cn & _ & _ & _ & ->)]].
  - now rewrite sess_set_same.
  - eapply passive_close_closed; eauto.
  - now rewrite sess_set_conns, sess_set_same.
Qed.

Lemma close_all_broken y s y' evs : close_all y s = (y', evs) -> se_broken (sess y' s) = true.
Proof.
  unfold close_all. intros H. destruct (se_broken (sess y s)) eqn:E; [injection H as <- <-; exact E|].
  destruct (close_ends _ _ _) as [cs e]. injection H as <- <-. now rewrite sess_set_conns, sess_set_same.
Qed.
(* both teardown blocks end in closeAll, unless the session was closed already *)
Lemma passive_close_end y s y' evs : passive_close y s = (y', evs) -> y' = y \/ se_broken (sess y' s) = true.
Proof.
  unfold passive_close. intros H. destruct (close_session_core (sess y s)) as [se ok].
  destruct ok; [right; eapply close_all_broken; eauto|injection H as <- _; now left].
Qed.
Lemma session_close_end y s ch y' ch' evs rc :
  session_close y s ch = (y', ch', evs, rc) -> y' = y \/ se_broken (sess y' s) = true.
Proof.
  intros H. destruct (session_close_steps _ _ _ _ _ _ _ H) as [[-> _]|(se & y2 & e2 & rc2 & e3 & _ & _ & Eca & _)]; [now left|].
  right. eapply close_all_broken; eauto.
Qed.

Lemma atom_cases s P y y' : atom s P y y' ->
  sess y' (other s) = sess y (other s) /\
  (sess y' s = sess y s \/ smove P (sess y s) (sess y' s) \/
   P Close /\ se_closed (sess y' s) = true /\ (y' = y \/ se_broken (sess y' s) = true)).
Proof.
  destruct 1 as [p|t|n cn cn' _ _ _|se' Hm|y' evs Hc H|ch y' ch' evs rc Hc H].
  - rewrite !sess_set_pend. auto.
  - rewrite !sess_set_now. auto.
  - rewrite !sess_set_conns. auto.
  - rewrite sess_set_other, sess_set_same. auto.
  - split; [eapply passive_close_other; eauto|]. right. right.
    split; [exact Hc|split; [eapply passive_close_closed; eauto|eapply passive_close_end; eauto]].
  - split; [eapply session_close_other; eauto|]. right. right.
    split; [exact Hc|split; [eapply session_close_closed; eauto|eapply session_close_end; eauto]].
Qed.

Lemma moves_other (A : side -> Prop) P y y' x : moves A P y y' -> ~ A x -> sess y' x = sess y x.
Proof.
  intros Hm Hx. refine (moves_inv A P (fun z => sess z x = sess y x) _ y y' Hm eq_refl).
  intros s a b Hs Ha E. destruct (side_cases x s) as [->| ->]; [contradiction|].
  rewrite (proj1 (atom_cases _ _ _ _ Ha)). exact E.
Qed.
Lemma atom_closed s P y y' x : atom s P y y' ->
  (se_closed (sess y x) = true -> se_closed (sess y' x) = true) /\
  (~ P Close -> se_closed (sess y' x) = se_closed (sess y x)).
Proof.
  intros Ha. destruct (atom_cases _ _ _ _ Ha) as (Ho & Hs).
  destruct (side_cases x s) as [->| ->]; [|rewrite Ho; auto].
  destruct Hs as [->|[Hm|(Hc & Hcl & _)]]; [auto|destruct (smove_fields _ _ _ Hm) as (-> & _); auto|].
  split; [auto|intros Hn; contradiction].
Qed.
Lemma moves_closed_same A P y y' x :
  moves A P y y' -> (forall s, ~ P s Close) -> se_closed (sess y' x) = se_closed (sess y x).
Proof.
  intros Hm Hn. refine (moves_inv A P (fun z => se_closed (sess z x) = se_closed (sess y x)) _ y y' Hm eq_refl).
  intros s a b _ Ha E. now rewrite (proj2 (atom_closed _ _ _ _ x Ha) (Hn s)).
Qed.

(* Stream.obfuscateAndSend: the sequence number is taken; then the frame is queued, or - whichever way
   the send fails - the session is torn down *)
Lemma stream_emit_cases y s sid pay ch y' ch' evs ok :
  stream_emit y s sid pay ch = (y', ch', evs, ok) ->
  match lookup sid (se_objs (sess y s)) with
  | None => y' = y /\ evs = [] /\ ok = false
  | Some st =>
      let y1 := set_sess y s (upd_objs (sess y s)
                  (update sid (mkS (st_seq st + 1) (st_wcl st) (st_closed st) (st_rb st)) (se_objs (sess y s)))) in
      let fr := mkW sid (st_seq st) (st_wcl st) pay in
      let p := fst (hd_pick ch) in
      (ok = true /\ evs = [EFrame s p fr] /\ exists cn, nthN (N.to_nat p) (sy_conns y1) = Some cn /\
         y' = set_conns y1 (setN (N.to_nat p) (conn_set_q cn (other s) (conn_q cn (other s) ++ [fr])) (sy_conns y1)))
      \/ (ok = false /\ passive_close y1 s = (y', evs))
  end.
Proof.
  unfold stream_emit. intros H.
  destruct (lookup sid (se_objs (sess y s))) as [st|]; [|injection H as <- _ <- <-; auto].
  cbv zeta in H |- *. destruct (hd_pick ch) as [c ch0]. cbn [fst]. set (y1 := set_sess y s _) in *.
  destruct (sb_send y1 s _ c) as [[y2 e2] rc] eqn:Es.
  destruct (sb_send_cases _ _ _ _ _ _ _ Es) as [(-> & -> & ->)|[[Epc ->]|(cn & En & -> & -> & ->)]]; cbn [N.eqb Pos.eqb] in H.
  - destruct (passive_close y1 s) as [y3 e3]. injection H as <- _ <- <-. right. split; reflexivity.
  - injection H as <- _ <- <-. right. split; [reflexivity|exact Epc].
  - injection H as <- _ <- <-. left. split; [reflexivity|split; [reflexivity|]]. exists cn. split; [exact En|reflexivity].
Qed.

Lemma stream_emit_sess y s sid pay ch y' ch' evs ok :
  stream_emit y s sid pay ch = (y', ch', evs, ok) ->
  sess y' (other s) = sess y (other s) /\
  match lookup sid (se_objs (sess y s)) with
  | None => y' = y /\ ok = false
  | Some st =>
      if ok then sess y' s = upd_objs (sess y s) (update sid (mkS (st_seq st + 1) (st_wcl st) (st_closed st) (st_rb st)) (se_objs (sess y s)))
      else se_closed (sess y' s) = true
  end.
Proof.
  intros H. pose proof (stream_emit_cases _ _ _ _ _ _ _ _ _ H) as Hc.
  destruct (lookup sid (se_objs (sess y s))) as [st|]; [|destruct Hc as (-> & _ & ->); auto].
  cbv zeta in Hc. destruct Hc as [(-> & _ & cn & _ & ->)|(-> & Epc)].
  - rewrite !sess_set_conns. split; [apply sess_set_other|apply sess_set_same].
  - split; [rewrite (passive_close_other _ _ _ _ Epc); apply sess_set_other|eapply passive_close_closed; eauto].
Qed.

(* Session.closeStream: nothing happens (no such stream, or closed already); or the stream is marked closed,
   an active close sends the closing frame, and - unless that failed - the entry is forgotten, after which the
   session is left as it is, gets an inactivity timer, or (single-plexing) is closed *)
Lemma close_stream_cases y s sid active ch y' ch' evs rc :
  close_stream y s sid active ch = (y', ch', evs, rc) ->
  (y' = y /\ evs = [] /\ forall st, lookup sid (se_objs (sess y s)) = Some st -> st_closed st = true) \/
  exists st y2 ch2 evs2 ok,
    lookup sid (se_objs (sess y s)) = Some st /\ st_closed st = false /\
    (let y1 := set_sess y s (upd_objs (sess y s)
                 (update sid (mkS (st_seq st) (if active then 1 else st_wcl st) true (rb_close (st_rb st))) (se_objs (sess y s)))) in
     if active then stream_emit y1 s sid [] ch else (y1, ch, [], true)) = (y2, ch2, evs2, ok) /\
    (ok = false /\ y' = y2 /\ evs = evs2 \/
     ok = true /\
     let se' := upd_count (upd_tab (sess y2 s) (update sid false (se_tab (sess y2 s)))) (decr32 (se_count (sess y2 s))) in
     let y3 := set_sess y2 s se' in
     ((exists ts, y' = set_sess y3 s (upd_timers se' ts)) /\ evs = evs2 \/
      exists ch4 evs4 rc4, se_singleplex (sess y2 s) = true /\
        session_close y3 s ch2 = (y', ch4, evs4, rc4) /\ evs = evs2 ++ evs4)).
Proof.
  unfold close_stream. intros H.
  destruct (lookup sid (se_objs (sess y s))) as [st|];
    [|injection H as <- _ <- _; left; split; [reflexivity|split; [reflexivity|discriminate]]].
  destruct (st_closed st) eqn:Ecl.
  { injection H as <- _ <- _. left. split; [reflexivity|split; [reflexivity|]]. intros st0 E. injection E as <-. exact Ecl. }
  right.
  cbv zeta in H |- *.
  destruct (if active then _ else _) as [[[y2 ch2] evs2] ok] eqn:Ee.
  exists st, y2, ch2, evs2, ok. split; [reflexivity|split; [exact Ecl|split; [exact Ee|]]].
  destruct ok; cbn [negb] in H; [right; split; [reflexivity|]|left; injection H as <- _ <- _; auto].
  assert (Hsame : forall se, set_sess y2 s se = set_sess (set_sess y2 s se) s (upd_timers se (se_timers se)))
    by (intros se; destruct s, se; reflexivity).
  destruct (_ =? 0); [destruct (se_singleplex _) eqn:Esp|].
  - right. destruct (session_close _ s ch2) as [[[y4 ch4] evs4] rc4]. injection H as <- _ <- _.
    exists ch4, evs4, rc4. repeat split.
  - left. injection H as <- _ <- _. split; [eexists; reflexivity|reflexivity].
  - left. injection H as <- _ <- _. split; [eexists; apply Hsame|reflexivity].
Qed.

(* the stream [id] of side [x] whose closed flag label [l] may set *)
Definition marks (y : sys) (l : label) (x : side) (id : N) : Prop :=
  match l with
  | LCloseStream s sid => x = s /\ id = sid
  | LDeliver s c =>
      x = s /\ exists cn fr q, nthN (N.to_nat c) (sy_conns y) = Some cn /\ conn_q cn s = fr :: q /\ w_sid fr = id
  | _ => False
  end.

(* what [P] must grant for label [l] to be a sequence of moves in state [y]: teardown to both sides;
   to OpenStream either an unchecked table change or the knowledge that its id is not in the table;
   to the side whose stream the label may close, the mark, and the same choice for the entry it forgets *)
Definition allows (P : side -> perm -> Prop) (y : sys) (l : label) : Prop :=
  (forall x, P x Close) /\
  (forall x, l = LOpen x ->
     P x Unchecked \/ (se_closed (sess y x) = false -> lookup (se_nextsid (sess y x)) (se_tab (sess y x)) = None)) /\
  (forall x id, marks y l x id -> P x (Mark id) /\ (P x Unchecked \/ open_has_entry (sess y x) id)).
Lemma allows_all y l : allows (fun _ _ => True) y l.
Proof. repeat split; auto. Qed.

(* The three loops of the model - the frames of one Stream.Write, the due timers of one tick, the blocked
   calls that can return: a relation between two states and the events reported in between that is
   reflexive, transitive and holds of the loop's body holds of the loop. *)
Section Loops.
Variable R : sys -> list ev -> sys -> Prop.
Hypothesis R_refl : forall y, R y [] y.
Hypothesis R_trans : forall y e1 y1 e2 y2, R y e1 y1 -> R y1 e2 y2 -> R y (e1 ++ e2) y2.

Lemma write_loop_ind s sid :
  (forall y pay ch y' ch' evs ok, stream_emit y s sid pay ch = (y', ch', evs, ok) -> R y evs y') ->
  forall fuel y data n ch y' ch' evs n' rc, write_loop fuel y s sid data n ch = (y', ch', evs, n', rc) -> R y evs y'.
Proof.
  intros He. induction fuel as [|fuel IH]; intros y data n ch y' ch' evs n' rc H; cbn in H;
    [injection H as <- _ <- _ _; apply R_refl|].
  destruct data as [|b d]; [injection H as <- _ <- _ _; apply R_refl|].
  destruct (stream_emit _ _ _ _ _) as [[[y1 ch1] evs1] ok] eqn:Ee. apply He in Ee.
  destruct ok; [|injection H as <- _ <- _ _; exact Ee].
  destruct (write_loop fuel y1 s sid _ _ ch1) as [[[[y2 ch2] evs2] n2] rc2] eqn:Ew. injection H as <- _ <- _ _.
  eapply R_trans; [exact Ee|eapply IH; eauto].
Qed.

Lemma fire_timers_ind s :
  (forall y ts, R y [] (set_sess y s (upd_timers (sess y s) ts))) ->
  (forall y ch y' ch' evs rc, session_close y s ch = (y', ch', evs, rc) -> R y evs y') ->
  forall fuel y ch y' ch' evs, fire_timers fuel y s ch = (y', ch', evs) -> R y evs y'.
Proof.
  intros Hp Hc. induction fuel as [|fuel IH]; intros y ch y' ch' evs H; cbn in H; [injection H as <- _ <-; apply R_refl|].
  destruct (se_timers (sess y s)) as [|t rest]; [injection H as <- _ <-; apply R_refl|].
  destruct (t <=? sy_now y)%Z; [|injection H as <- _ <-; apply R_refl].
  apply (R_trans _ [] _ _ _ (Hp y rest)). destruct (_ && _); [|eapply IH; eauto].
  destruct (session_close _ s ch) as [[[y2 ch2] evs2] rc2] eqn:Esc.
  destruct (fire_timers fuel y2 s ch2) as [[y3 ch3] evs3] eqn:Ef. injection H as <- _ <-.
  eapply R_trans; [eapply Hc; eauto|eapply IH; eauto].
Qed.

Lemma resolve_ind :
  (forall y s sid k y' rc d, try_read y s sid k = Some (y', rc, d) ->
     R y [EPend (PRead s sid k) rc (N.of_nat (length d)) d] y') ->
  (forall y s y' rc id, try_accept y s = Some (y', rc, id) -> R y [EPend (PAccept s) rc id []] y') ->
  forall ps y y' ps' evs, resolve ps y = (y', ps', evs) -> R y evs y'.
Proof.
  intros Hr Ha. induction ps as [|p t IH]; intros y y' ps' evs H; cbn in H; [injection H as <- _ <-; apply R_refl|].
  destruct p as [x sid n|x].
  - destruct (try_read y x sid n) as [[[y1 rc] d]|] eqn:Et.
    + destruct (resolve t y1) as [[y2 ps2] evs2] eqn:Er. injection H as <- _ <-.
      exact (R_trans _ [_] _ _ _ (Hr _ _ _ _ _ _ _ Et) (IH _ _ _ _ Er)).
    + destruct (resolve t y) as [[y2 ps2] evs2] eqn:Er. injection H as <- _ <-. eapply IH; eauto.
  - destruct (try_accept y x) as [[[y1 rc] id]|] eqn:Et.
    + destruct (resolve t y1) as [[y2 ps2] evs2] eqn:Er. injection H as <- _ <-.
      exact (R_trans _ [_] _ _ _ (Ha _ _ _ _ _ Et) (IH _ _ _ _ Er)).
    + destruct (resolve t y) as [[y2 ps2] evs2] eqn:Er. injection H as <- _ <-. eapply IH; eauto.
Qed.
End Loops.

(* the one walk through the building blocks: each of them is a sequence of moves *)
Section Walk.
Variables (A : side -> Prop) (P : side -> perm -> Prop).

Lemma sess_move y s se' : A s -> smove (P s) (sess y s) se' -> moves A P y (set_sess y s se').
Proof. intros Hs Hm. apply (moves_one _ _ s); [exact Hs|]. now apply a_sess. Qed.

Lemma passive_close_moves y s y' evs : passive_close y s = (y', evs) -> A s -> P s Close -> moves A P y y'.
Proof. intros H Hs Hc. apply (moves_one _ _ s); [exact Hs|]. eapply a_passive_close; eauto. Qed.
Lemma session_close_moves y s ch y' ch' evs rc :
  session_close y s ch = (y', ch', evs, rc) -> A s -> P s Close -> moves A P y y'.
Proof. intros H Hs Hc. apply (moves_one _ _ s); [exact Hs|]. eapply a_session_close; eauto. Qed.

Lemma set_q_move y s n cn x q :
  A s -> nthN n (sy_conns y) = Some cn -> moves A P y (set_conns y (setN n (conn_set_q cn x q) (sy_conns y))).
Proof.
  intros Hs En. apply (moves_one _ _ s); [exact Hs|]. destruct (conn_set_q_flags cn x q) as (Ha & Hb & _).
  eapply a_conn; [exact En|rewrite Ha; auto|rewrite Hb; auto].
Qed.

Lemma stream_emit_moves y s sid pay ch y' ch' evs ok :
  stream_emit y s sid pay ch = (y', ch', evs, ok) -> A s -> P s Close -> moves A P y y'.
Proof.
  intros H Hs Hc. pose proof (stream_emit_cases _ _ _ _ _ _ _ _ _ H) as Hx.
  destruct (lookup sid (se_objs (sess y s))) as [st|] eqn:El; [|destruct Hx as (-> & _); apply moves_nil].
  cbv zeta in Hx. set (y1 := set_sess y s _) in Hx.
  apply (moves_trans A P _ y1); [apply sess_move; [exact Hs|]; eapply sm_obj; [exact El|reflexivity..]|].
  destruct Hx as [(_ & _ & cn & En & ->)|(_ & Epc)]; [now apply (set_q_move _ s)|eapply passive_close_moves; eauto].
Qed.

Lemma write_loop_moves fuel y s sid data n ch y' ch' evs n' rc :
  write_loop fuel y s sid data n ch = (y', ch', evs, n', rc) -> A s -> P s Close -> moves A P y y'.
Proof.
  intros H Hs Hc. revert H. apply (write_loop_ind (fun a _ b => moves A P a b));
    [apply moves_nil|intros; eapply moves_trans; eauto|intros; eapply stream_emit_moves; eauto].
Qed.
Lemma stream_write_moves y s sid data ch y' evs :
  stream_write y s sid data ch = (y', evs) -> A s -> P s Close -> moves A P y y'.
Proof.
  unfold stream_write. intros H Hs Hc. destruct (lookup _ _) as [st|]; [|injection H as <- _; apply moves_nil].
  destruct (st_closed st); [injection H as <- _; apply moves_nil|].
  destruct (write_loop _ y s sid data 0 ch) as [[[[y1 ch1] evs1] n] rc] eqn:Ew. injection H as <- _.
  eapply write_loop_moves; eauto.
Qed.

Lemma close_stream_moves y s sid active ch y' ch' evs rc :
  close_stream y s sid active ch = (y', ch', evs, rc) -> A s -> P s Close -> P s (Mark sid) ->
  P s Unchecked \/ open_has_entry (sess y s) sid -> moves A P y y'.
Proof.
  intros H Hs Hc Hm Hl.
  destruct (close_stream_cases _ _ _ _ _ _ _ _ _ H) as [[-> _]|(st & y2 & ch2 & evs2 & ok & El & Ecl & Ee & Ht)];
    [apply moves_nil|].
  cbv zeta in Ee, Ht. set (st1 := mkS _ _ true _) in Ee. set (y1 := set_sess y s _) in Ee.
  apply (moves_trans A P _ y1); [apply sess_move; [exact Hs|]; exact (sm_mark _ _ _ st _ Hm El Ecl)|].
  apply (moves_trans A P _ y2).
  { destruct active; [eapply stream_emit_moves; eauto|injection Ee as <- _ _ _; apply moves_nil]. }
  destruct Ht as [(_ & -> & _)|(-> & Ht)]; [apply moves_nil|].
  (* the closing frame went out: the object is as marked, but for its sequence number *)
  assert (Hs2 : exists st2, st_closed st2 = true /\
                 sess y2 s = upd_objs (sess y s) (update sid st2 (se_objs (sess y s)))).
  { destruct active.
    - destruct (stream_emit_sess _ _ _ _ _ _ _ _ _ Ee) as [_ Hx]. unfold y1 in Hx. rewrite sess_set_same in Hx.
      cbn [se_objs upd_objs] in Hx. rewrite lookup_update_eq in Hx.
      eexists. split; [|rewrite Hx; cbn [se_objs upd_objs]; rewrite update_update; reflexivity]. reflexivity.
    - injection Ee as <- _ _. exists st1. split; [reflexivity|apply sess_set_same]. }
  destruct Hs2 as (st2 & Hc2 & Hs2).
  set (se' := upd_count _ _) in Ht. set (y3 := set_sess y2 s se') in Ht.
  apply (moves_trans A P _ y3).
  { apply sess_move; [exact Hs|]. apply (sm_forget _ _ sid st2); [rewrite Hs2; apply lookup_update_eq|exact Hc2|].
    destruct Hl as [Hu|Hl]; [now right|left]. rewrite Hs2. exact (Hl _ El Ecl). }
  destruct Ht as [[(ts & ->) _]|(ch4 & evs4 & rc4 & _ & Esc & _)]; [|eapply session_close_moves; eauto].
  apply sess_move; [exact Hs|]. unfold y3. rewrite sess_set_same.
  exact (sm_quiet _ _ (se_acceptq se') (se_nextsid se') ts).
Qed.

Lemma deliver_moves y s fr ch y' ch' evs :
  deliver y s fr ch = (y', ch', evs) -> A s -> P s Close -> P s (Mark (w_sid fr)) ->
  P s Unchecked \/ open_has_entry (sess y s) (w_sid fr) -> moves A P y y'.
Proof.
  unfold deliver. intros H Hs Hc Hm Hl.
  destruct (lookup (w_sid fr) (se_objs (sess y s))) as [st|] eqn:El; [|injection H as <- _ _; apply moves_nil].
  pose proof (rb_write_pclosed (st_rb st) (mkF (w_seq fr) (negb (w_cl fr =? 0)) (w_pay fr))) as Hpc.
  destruct (rb_write (st_rb st) _) as [[rb' tbc] er]. cbn [fst] in Hpc. cbv zeta in H.
  set (y1 := set_sess y s _) in H.
  assert (H1 : moves A P y y1) by (apply sess_move; [exact Hs|]; eapply sm_obj; [exact El|reflexivity|reflexivity|exact Hpc]).
  destruct tbc; [|injection H as <- _ _; exact H1].
  destruct (close_stream y1 s (w_sid fr) false ch) as [[[y2 ch2] evs2] rc] eqn:Ecs. injection H as <- _ _.
  eapply moves_trans; [exact H1|]. eapply close_stream_moves; eauto.
  destruct Hl as [Hu|Hl]; [now left|right]. unfold y1. rewrite sess_set_same. intros st0 E0 C0.
  cbn [se_objs upd_objs] in E0. rewrite lookup_update_eq in E0. injection E0 as <-. exact (Hl st El C0).
Qed.

Lemma recv_frame_moves y s fr ch y' ch' evs :
  recv_frame y s fr ch = (y', ch', evs) -> A s -> P s Close -> P s (Mark (w_sid fr)) ->
  P s Unchecked \/ open_has_entry (sess y s) (w_sid fr) -> moves A P y y'.
Proof.
  rewrite recv_frame_eq. intros H Hs Hc Hm Hl.
  destruct (w_cl fr =? 2).
  { destruct (passive_close y s) as [y1 e1] eqn:Epc. injection H as <- _ _. eapply passive_close_moves; eauto. }
  destruct (se_closed (sess y s)) eqn:Ecl; [injection H as <- _ _; apply moves_nil|].
  destruct (lookup (w_sid fr) (se_tab (sess y s))) as [[|]|] eqn:Et.
  - eapply deliver_moves; eauto.
  - injection H as <- _ _. apply moves_nil.
  - set (y1 := set_sess y s _) in H.
    assert (H1 : moves A P y y1) by (apply sess_move; [exact Hs|]; apply sm_add; auto).
    eapply moves_trans; [exact H1|]. eapply deliver_moves; eauto.
    right. unfold y1. rewrite sess_set_same. intros st0 _ _ _. apply lookup_update_eq.
Qed.

Lemma deplex_error_moves y s c y' evs : deplex_error y s c = (y', evs) -> A s -> P s Close -> moves A P y y'.
Proof.
  unfold deplex_error. intros H Hs Hc. destruct (passive_close y s) as [y1 e1] eqn:Epc.
  assert (H1 : moves A P y y1) by (eapply passive_close_moves; eauto).
  destruct (nthN (N.to_nat c) (sy_conns y1)) as [cn|] eqn:En; [|injection H as <- _; exact H1].
  destruct (conn_closed_end cn s); injection H as <- _; [exact H1|].
  eapply moves_trans; [exact H1|]. apply (moves_one _ _ s); [exact Hs|].
  destruct (conn_le_mono s cn _ (conn_le_close s cn)) as [Ha Hb]. eapply a_conn; eauto.
Qed.

Lemma open_stream_moves y s y' evs :
  open_stream y s = (y', evs) -> A s ->
  P s Unchecked \/ (se_closed (sess y s) = false -> lookup (se_nextsid (sess y s)) (se_tab (sess y s)) = None) ->
  moves A P y y'.
Proof.
  unfold open_stream. intros H Hs Ho.
  destruct (se_closed (sess y s)) eqn:Ecl; [injection H as <- _; apply moves_nil|].
  destruct (_ && _); injection H as <- _; (apply sess_move; [exact Hs|]).
  - exact (sm_quiet _ _ (se_acceptq (sess y s)) _ (se_timers (sess y s))).
  - refine (sm_add _ _ (se_nextsid (sess y s)) (se_acceptq (sess y s)) _ Ecl _).
    destruct Ho as [Ho|Hn]; [now right|left; now apply Hn].
Qed.

Lemma try_read_moves y s sid k y' rc d : try_read y s sid k = Some (y', rc, d) -> A s -> moves A P y y'.
Proof.
  unfold try_read. intros H Hs.
  destruct (lookup sid (se_objs (sess y s))) as [st|] eqn:El; [|injection H as <- _ _; apply moves_nil].
  destruct k as [|k]; [injection H as <- _ _; apply moves_nil|].
  pose proof (rb_read_pclosed (st_rb st) (S k)) as Hpc.
  destruct (rb_read (st_rb st) (S k)) as [rb' [dd| |]]; try discriminate; injection H as <- _ _; [|apply moves_nil].
  apply sess_move; [exact Hs|]. eapply sm_obj; [exact El|reflexivity|reflexivity|exact Hpc].
Qed.
Lemma try_accept_moves y s y' rc id : try_accept y s = Some (y', rc, id) -> A s -> moves A P y y'.
Proof.
  unfold try_accept. intros H Hs. destruct (se_acceptq (sess y s)) as [|i q].
  - destruct (se_closed (sess y s)); [injection H as <- _ _; apply moves_nil|discriminate].
  - injection H as <- _ _. apply sess_move; [exact Hs|].
    exact (sm_quiet _ _ q (se_nextsid (sess y s)) (se_timers (sess y s))).
Qed.
Lemma resolve_moves ps y y' ps' evs : resolve ps y = (y', ps', evs) -> (forall x, A x) -> moves A P y y'.
Proof.
  intros H Ha. revert H. apply (resolve_ind (fun a _ b => moves A P a b));
    [apply moves_nil|intros; eapply moves_trans; eauto|intros; eapply try_read_moves; eauto|intros; eapply try_accept_moves; eauto].
Qed.

Lemma fire_timers_moves fuel y s ch y' ch' evs :
  fire_timers fuel y s ch = (y', ch', evs) -> A s -> P s Close -> moves A P y y'.
Proof.
  intros H Hs Hc. revert H. apply (fire_timers_ind (fun a _ b => moves A P a b));
    [apply moves_nil|intros; eapply moves_trans; eauto| |intros; eapply session_close_moves; eauto].
  intros y0 ts. apply sess_move; [exact Hs|]. exact (sm_quiet _ _ (se_acceptq (sess y0 s)) (se_nextsid (sess y0 s)) ts).
Qed.

Lemma step_core_moves y l ch y' evs :
  step_core y l ch = (y', evs) -> (forall x, A x) -> allows P y l -> moves A P y y'.
Proof.
  intros H Ha (Hc & Ho & Hmk). destruct l as [s|s sid data|s sid k|s|s sid|s|s c|c|d|c|s c].
  - rewrite step_core_open in H. eapply open_stream_moves; eauto.
  - rewrite step_core_write in H. eapply stream_write_moves; eauto.
  - rewrite step_core_read in H. destruct (has_pending_read _ _ _); [injection H as <- _; apply moves_nil|].
    destruct (try_read y s sid k) as [[[y1 rc] dd]|] eqn:Et; injection H as <- _; [eapply try_read_moves; eauto|].
    apply (moves_one _ _ s); [apply Ha|apply a_pend].
  - rewrite step_core_accept in H. destruct (se_closed _); [injection H as <- _; apply moves_nil|].
    destruct (try_accept y s) as [[[y1 rc] id]|] eqn:Et; [injection H as <- _; eapply try_accept_moves; eauto|].
    destruct (has_pending_accept _ _); injection H as <- _; [apply moves_nil|].
    apply (moves_one _ _ s); [apply Ha|apply a_pend].
  - rewrite step_core_close_stream in H. destruct (close_stream y s sid true ch) as [[[y1 ch1] e1] rc] eqn:Ec.
    injection H as <- _. destruct (Hmk s sid (conj eq_refl eq_refl)). eapply close_stream_moves; eauto.
  - rewrite step_core_close_session in H. destruct (session_close y s ch) as [[[y1 ch1] e1] rc] eqn:Ec.
    injection H as <- _. eapply session_close_moves; eauto.
  - rewrite step_core_deliver in H.
    destruct (nthN (N.to_nat c) (sy_conns y)) as [cn|] eqn:En; [|injection H as <- _; apply moves_nil].
    destruct (_ || _); [injection H as <- _; apply moves_nil|].
    destruct (conn_q cn s) as [|fr q] eqn:Eq.
    + destruct (conn_closed_end cn (other s)); [|injection H as <- _; apply moves_nil].
      destruct (deplex_error y s c) as [y1 e1] eqn:Ed. injection H as <- _. eapply deplex_error_moves; eauto.
    + set (y0 := set_conns y _) in H.
      assert (H0 : moves A P y y0) by (apply (set_q_move _ s); [apply Ha|exact En]).
      destruct (recv_frame y0 s fr ch) as [[y2 ch2] e2] eqn:Er. injection H as <- _.
      destruct (Hmk s (w_sid fr)) as [Hm Hl]; [split; [reflexivity|]; exists cn, fr, q; auto|].
      eapply moves_trans; [exact H0|]. eapply recv_frame_moves; eauto.
  - rewrite step_core_fail in H.
    destruct (nthN (N.to_nat c) (sy_conns y)) as [cn|] eqn:En; [|injection H as <- _; apply moves_nil].
    cbv zeta in H. set (y0 := set_conns y _) in H.
    assert (H0 : moves A P y y0) by (apply (moves_one _ _ SA); [apply Ha|]; eapply a_conn; [exact En|cbn; auto|cbn; auto]).
    destruct (if conn_closed_end cn SA || c_failed cn then (y0, []) else deplex_error y0 SA c) as [y1 e1] eqn:E1.
    assert (H1 : moves A P y0 y1).
    { destruct (_ || _) in E1; [injection E1 as <- _; apply moves_nil|eapply deplex_error_moves; eauto]. }
    destruct (if conn_closed_end cn SB || c_failed cn then (y1, []) else deplex_error y1 SB c) as [y2 e2] eqn:E2.
    injection H as <- _. eapply moves_trans; [exact H0|]. eapply moves_trans; [exact H1|].
    destruct (_ || _) in E2; [injection E2 as <- _; apply moves_nil|eapply deplex_error_moves; eauto].
  - rewrite step_core_tick in H.
    destruct (fire_timers 64 (set_now y (sy_now y + d)%Z) SA ch) as [[y1 ch1] e1] eqn:E1.
    destruct (fire_timers 64 y1 SB ch1) as [[y2 ch2] e2] eqn:E2. injection H as <- _.
    eapply moves_cons; [apply (Ha SA)|apply a_now|].
    eapply moves_trans; eapply fire_timers_moves; eauto.
  - rewrite step_core_break in H.
    destruct (nthN (N.to_nat c) (sy_conns y)) as [cn|] eqn:En; injection H as <- _; [|apply moves_nil].
    apply (moves_one _ _ SA); [apply Ha|]. eapply a_conn; [exact En|cbn; auto|cbn; auto].
  - rewrite step_core_notice in H.
    destruct (nthN (N.to_nat c) (sy_conns y)) as [cn|]; [|injection H as <- _; apply moves_nil].
    destruct (_ && _); [|injection H as <- _; apply moves_nil].
    destruct (deplex_error y s c) as [y1 e1] eqn:Ed. injection H as <- _. eapply deplex_error_moves; eauto.
Qed.

Lemma step_moves y l ch y' evs :
  step y l ch = (y', evs) -> (forall x, A x) -> allows P y l -> moves A P y y'.
Proof.
  unfold step. intros H Ha Hal. pose proof Hal as (Hc & _). destruct (step_core y l ch) as [y1 e1] eqn:Ec.
  destruct (resolve (sy_pend y1) y1) as [[y2 ps] e2] eqn:Er. injection H as <- _.
  eapply moves_trans; [eapply step_core_moves; eauto|].
  eapply moves_trans; [eapply resolve_moves; eauto|]. apply (moves_one _ _ SA); [apply Ha|apply a_pend].
Qed.
End Walk.

Lemma resolve_closed ps y y' ps' evs x :
  resolve ps y = (y', ps', evs) -> se_closed (sess y' x) = se_closed (sess y x).
Proof.
  intros H. apply (moves_closed_same (fun _ => True) (fun _ _ => False)); [|auto].
  eapply resolve_moves; eauto.
Qed.
Lemma fire_timers_other fuel y s ch y' ch' evs :
  fire_timers fuel y s ch = (y', ch', evs) -> sess y' (other s) = sess y (other s).
Proof.
  intros H. apply (moves_other (eq s) (fun _ _ => True)); [eapply fire_timers_moves; eauto|].
  intros E. symmetry in E. exact (other_neq _ E).
Qed.
Lemma deplex_error_other y s c y' evs : deplex_error y s c = (y', evs) -> sess y' (other s) = sess y (other s).
Proof.
  intros H. apply (moves_other (eq s) (fun _ _ => True)); [eapply deplex_error_moves; eauto|].
  intros E. symmetry in E. exact (other_neq _ E).
Qed.
Lemma deplex_error_closed y s c y' evs : deplex_error y s c = (y', evs) -> se_closed (sess y' s) = true.
Proof.
  unfold deplex_error. intros H. destruct (passive_close y s) as [y1 e1] eqn:Epc.
  pose proof (passive_close_closed _ _ _ _ Epc) as Hc.
  destruct (nthN _ _) as [cn|]; [|injection H as <- <-; exact Hc].
  destruct (conn_closed_end cn s); injection H as <- <-; [exact Hc|]. now rewrite sess_set_conns.
Qed.

Lemma run_inv (I : sys -> Prop) :
  (forall y l ch y' evs, step y l ch = (y', evs) -> I y -> I y') ->
  forall ls y y' os, run y ls = (y', os) -> I y -> I y'.
Proof.
  intros Hs ls. induction ls as [|[l ch] t IH]; intros y y' os H Hi; cbn in H; [injection H as <- _; exact Hi|].
  destruct (step y l ch) as [y1 o] eqn:Es. destruct (run y1 t) as [y2 os2] eqn:Er. injection H as <- _. eauto.
Qed.
