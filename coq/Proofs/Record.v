(* Proofs about Model/Record.v : record framing survives segmentation and concurrent writers (C05). *)
From Coq Require Import NArith ZArith List Lia Bool.
From Coq Require Import ZifyN ZifyNat ZifyBool.
From Cloak Require Import Gen.Consts Model.Record Proofs.ListFacts.
Import ListNotations.
Local Open Scope N_scope.

(* the two length bytes can carry every length Write accepts *)
Lemma write_limit_fits_u16 : write_limit < 65536.
Proof. reflexivity. Qed.
(* a multiplex frame of the default maximal size fits into one TLS record *)
Lemma frame_fits_record : Z.to_N mux_defaultMaxOnWireSize <= write_limit.
Proof. vm_compute. discriminate. Qed.

Lemma nlen_app a b : nlen (a ++ b) = nlen a + nlen b.
Proof. unfold nlen. rewrite app_length. lia. Qed.
Lemma nlen_nil : nlen [] = 0.
Proof. reflexivity. Qed.

(* io.ReadFull on the byte stream [s] itself.  read_full computes this whatever the segmentation
   (read_full_flat); every other fact about reading follows from that one. *)
Definition rf_flat (k : N) (s acc : list N) : rf_result * list N :=
  if k <=? nlen s then (RfOk (acc ++ firstn (N.to_nat k) s), skipn (N.to_nat k) s)
  else (match acc ++ s with [] => RfEOF | _ => RfUnexpectedEOF (acc ++ s) end, []).

Lemma read_full_acc_flat cs : forall k acc,
  fst (read_full_acc k cs acc) = fst (rf_flat k (concat cs) acc)
  /\ concat (snd (read_full_acc k cs acc)) = snd (rf_flat k (concat cs) acc).
Proof.
  induction cs as [|c rest IH]; intros k acc; cbn [read_full_acc concat].
  - unfold rf_flat. cbn [nlen length N.of_nat]. destruct (N.eqb_spec k 0) as [->|Hk].
    + cbn. now rewrite app_nil_r.
    + destruct (N.leb_spec k 0); [lia|]. rewrite app_nil_r. cbn. now destruct acc.
  - destruct (N.eqb_spec k 0) as [->|Hk].
    + unfold rf_flat. destruct (N.leb_spec 0 (nlen (c ++ concat rest))); [|lia].
      cbn. now rewrite app_nil_r.
    + destruct (N.leb_spec (nlen c) k) as [Hle|Hgt].
      * destruct (IH (k - nlen c) (acc ++ c)) as [H1 H2]. rewrite H1, H2. clear IH H1 H2.
        unfold rf_flat. rewrite nlen_app.
        assert (Hc : (length c <= N.to_nat k)%nat) by (unfold nlen in Hle; lia).
        assert (Hk' : N.to_nat (k - nlen c) = (N.to_nat k - length c)%nat) by (unfold nlen; lia).
        destruct (N.leb_spec (k - nlen c) (nlen (concat rest))) as [Ha|Ha];
          destruct (N.leb_spec k (nlen c + nlen (concat rest))) as [Hb|Hb]; try lia.
        -- cbn [fst snd]. rewrite Hk', firstn_app_ge, skipn_app_ge by exact Hc.
           now rewrite <- app_assoc.
        -- cbn [fst snd]. now rewrite <- app_assoc.
      * unfold rf_flat. rewrite nlen_app.
        assert (Hc : (N.to_nat k <= length c)%nat) by (unfold nlen in Hgt; lia).
        destruct (N.leb_spec k (nlen c + nlen (concat rest))); [|lia].
        cbn [fst snd concat]. now rewrite firstn_app_le, skipn_app_le by exact Hc.
Qed.

Lemma read_full_flat k cs :
  fst (read_full k cs) = fst (rf_flat k (concat cs) [])
  /\ concat (snd (read_full k cs)) = snd (rf_flat k (concat cs) []).
Proof. apply read_full_acc_flat. Qed.

(* two segmentations of the same stream: same result, same stream left *)
Lemma read_full_seg k cs cs' : concat cs = concat cs' ->
  exists r cs1 cs1', read_full k cs = (r, cs1) /\ read_full k cs' = (r, cs1') /\ concat cs1 = concat cs1'.
Proof.
  intros H. destruct (read_full_flat k cs) as [H1 H2], (read_full_flat k cs') as [H1' H2']. rewrite <- H in *.
  destruct (read_full k cs) as [r cs1], (read_full k cs') as [r' cs1']. cbn [fst snd] in *.
  exists r, cs1, cs1'. repeat split; congruence.
Qed.

Lemma tls_read_seg buflen cs cs' : concat cs = concat cs' ->
  exists r cs1 cs1', tls_read buflen cs = (r, cs1) /\ tls_read buflen cs' = (r, cs1') /\ concat cs1 = concat cs1'.
Proof.
  intros H. unfold tls_read. destruct (buflen <? hdr_len); [now eexists _, _, _|].
  destruct (read_full_seg hdr_len _ _ H) as (r & cs1 & cs1' & -> & -> & H1).
  destruct r as [h| |d]; [|now eexists _, _, _..]. destruct (buflen <? _); [now eexists _, _, _|].
  destruct (read_full_seg (256 * nth 3 h 0 + nth 4 h 0) _ _ H1) as (r2 & cs2 & cs2' & -> & -> & H2).
  destruct r2; now eexists _, _, _.
Qed.

Lemma segmentation_irrelevant fuel buflen : forall cs cs', concat cs = concat cs' ->
  tls_reads fuel buflen cs = tls_reads fuel buflen cs'.
Proof.
  induction fuel as [|f IH]; intros cs cs' H; cbn [tls_reads]; [reflexivity|].
  destruct (tls_read_seg buflen _ _ H) as (r & cs1 & cs1' & -> & -> & H1).
  destruct r; try reflexivity. f_equal. now apply IH.
Qed.

(* the TLS record that Write puts on the wire for m (not a multiplex frame) *)
Definition frame (m : list N) : list N := header app_data tls13 (nlen m) ++ m.

Lemma rec_write_frame m : nlen m <= write_limit -> rec_write m = Some (frame m).
Proof. intros H. unfold rec_write. destruct (N.ltb_spec write_limit (nlen m)); [lia|reflexivity]. Qed.
Lemma rec_write_refuses m : write_limit < nlen m -> rec_write m = None.
Proof. intros H. unfold rec_write. destruct (N.ltb_spec write_limit (nlen m)); [reflexivity|lia]. Qed.

Lemma header_len t v l : nlen (header t v l) = 5.
Proof. reflexivity. Qed.

Lemma rf_flat_prefix (a rest : list N) : rf_flat (nlen a) (a ++ rest) [] = (RfOk a, rest).
Proof. unfold rf_flat. rewrite nlen_app. destruct (N.leb_spec (nlen a) (nlen a + nlen rest)); [|lia].
  cbn [app]. unfold nlen. rewrite Nat2N.id.
  now rewrite firstn_app_exact, skipn_app_exact by reflexivity. Qed.

(* reading exactly a prefix of the stream returns it and leaves the rest, however both are cut *)
Lemma read_full_prefix a rest cs : concat cs = a ++ rest ->
  exists cs', read_full (nlen a) cs = (RfOk a, cs') /\ concat cs' = rest.
Proof.
  intros H. destruct (read_full_flat (nlen a) cs) as [H1 H2]. rewrite H, rf_flat_prefix in H1, H2.
  destruct (read_full (nlen a) cs) as [r cs']. exists cs'. cbn [fst snd] in H1, H2. now subst r.
Qed.

Lemma len_bytes_decode l : l < 65536 -> 256 * ((l / 256) mod 256) + l mod 256 = l.
Proof.
  intros H. rewrite (N.mod_small (l / 256)) by (apply N.div_lt_upper_bound; lia).
  symmetry. now apply N.div_mod.
Qed.

(* a record at the head of the stream: the header is consumed; a body that fits the buffer is
   returned whole, a longer one is an error and stays in the stream *)
Lemma tls_read_frame buflen m rest cs : hdr_len <= buflen -> nlen m < 65536 ->
  concat cs = header app_data tls13 (nlen m) ++ m ++ rest ->
  exists cs', tls_read buflen cs = (if buflen <? nlen m then TrShortBuffer else TrData m, cs')
    /\ concat cs' = if buflen <? nlen m then m ++ rest else rest.
Proof.
  intros Hb Hl Hc. unfold tls_read. destruct (N.ltb_spec buflen hdr_len); [lia|].
  destruct (read_full_prefix _ _ _ Hc) as (cs1 & E1 & Hc1).
  change (nlen (header app_data tls13 (nlen m))) with hdr_len in E1. rewrite E1.
  cbn [header nth]. rewrite len_bytes_decode by exact Hl.
  destruct (buflen <? nlen m); [now exists cs1|].
  destruct (read_full_prefix _ _ _ Hc1) as (cs2 & E2 & Hc2). rewrite E2. now exists cs2.
Qed.

Lemma oversize_is_error buflen m rest cs : hdr_len <= buflen -> buflen < nlen m -> nlen m <= write_limit ->
  concat cs = header app_data tls13 (nlen m) ++ m ++ rest ->
  fst (tls_read buflen cs) = TrShortBuffer /\ concat (snd (tls_read buflen cs)) = m ++ rest
  /\ forall fuel, tls_reads (S fuel) buflen cs = [TrShortBuffer].
Proof.
  intros Hb Hm Hl Hc. pose proof write_limit_fits_u16 as Hw.
  destruct (tls_read_frame buflen m rest cs) as (cs' & E & Hc'); [lia..|exact Hc|].
  destruct (N.ltb_spec buflen (nlen m)); [|lia].
  split; [now rewrite E|]. split; [now rewrite E|]. intros fuel. cbn [tls_reads]. now rewrite E.
Qed.

(* a buffer shorter than a header is refused before anything is read *)
Lemma tiny_buffer buflen cs : buflen < hdr_len -> tls_read buflen cs = (TrShortBuffer, cs).
Proof. intros H. unfold tls_read. destruct (N.ltb_spec buflen hdr_len); [reflexivity|lia]. Qed.

Definition fits (bound : N) (ms : list (list N)) : Prop := Forall (fun m => nlen m <= bound) ms.

Lemma wire_of_cons m ms : nlen m <= write_limit -> wire_of (m :: ms) = frame m ++ wire_of ms.
Proof. intros H. unfold wire_of. cbn [map concat]. now rewrite (rec_write_frame m H). Qed.

(* Write refuses what does not fit the length field's budget, and puts nothing on the wire *)
Lemma wire_of_refused m ms : write_limit < nlen m -> wire_of (m :: ms) = wire_of ms.
Proof. intros H. unfold wire_of. cbn [map concat]. now rewrite (rec_write_refuses m H). Qed.

Lemma wire_of_frames ms : fits write_limit ms -> wire_of ms = concat (map frame ms).
Proof. induction 1 as [|m ms Hm _ IH]; [reflexivity|]. rewrite wire_of_cons by exact Hm. cbn. now rewrite IH. Qed.

Lemma one_write_one_read ms : forall cs buflen fuel,
  fits write_limit ms -> fits buflen ms -> hdr_len <= buflen -> (length ms < fuel)%nat ->
  concat cs = wire_of ms ->
  tls_reads fuel buflen cs = map TrData ms ++ [TrEOF].
Proof.
  pose proof write_limit_fits_u16 as Hw.
  induction ms as [|m ms IH]; intros cs buflen [|fuel] Hl Hb Hh Hf Hc; try (cbn in Hf; lia); cbn [tls_reads].
  - unfold tls_read. destruct (N.ltb_spec buflen hdr_len); [lia|].
    destruct (read_full_flat hdr_len cs) as [H1 _]. rewrite Hc in H1.
    destruct (read_full hdr_len cs) as [r cs1]. cbn in H1. now subst r.
  - inversion Hl; inversion Hb; subst. rewrite wire_of_cons in Hc by assumption.
    unfold frame in Hc. rewrite <- app_assoc in Hc.
    destruct (tls_read_frame buflen m (wire_of ms) cs) as (cs' & E & Hc'); [lia..|exact Hc|].
    destruct (N.ltb_spec buflen (nlen m)); [lia|]. rewrite E. cbn [map app]. f_equal.
    apply IH; try assumption. cbn in Hf. lia.
Qed.

(* the chunkings the drivers use are chunkings *)
Lemma cut_at_concat cuts : forall pos s, concat (cut_at pos cuts s) = s.
Proof. induction cuts as [|c r IH]; intros pos s; cbn [cut_at concat]; [apply app_nil_r|].
  destruct (c <=? pos); [apply IH|]. cbn [concat]. rewrite IH. apply firstn_skipn. Qed.

(* the messages of writer i among those that went out, in the order they went out *)
Fixpoint sel {A} (i : nat) (sched : list nat) (l : list A) : list A :=
  match sched, l with
  | j :: s, x :: t => if Nat.eqb j i then x :: sel i s t else sel i s t
  | _, _ => []
  end.

Lemma pop_nth_spec {A} i : forall (qs : list (list A)) x qs', pop_nth i qs = Some (x, qs') ->
  nth i qs [] = x :: nth i qs' [] /\ (forall j, j <> i -> nth j qs' [] = nth j qs [])
  /\ length qs' = length qs.
Proof.
  induction i as [|i IH]; intros qs x qs' H; destruct qs as [|q r]; cbn [pop_nth] in H; try discriminate.
  - destruct q as [|y q']; [discriminate|]. injection H as <- <-. cbn [nth]. repeat split.
    intros j Hj. destruct j; [contradiction|reflexivity].
  - destruct (pop_nth i r) as [[y r']|] eqn:E; [|discriminate]. injection H as <- <-.
    destruct (IH _ _ _ E) as (H1 & H2 & H3). cbn [nth length]. repeat split; [exact H1| |now rewrite H3].
    intros j Hj. destruct j; [reflexivity|]. apply H2. lia.
Qed.

Lemma run_sched_spec {A} sched : forall (qs : list (list A)) l qf, run_sched qs sched = Some (l, qf) ->
  length l = length sched /\ length qf = length qs
  /\ forall i, nth i qs [] = sel i sched l ++ nth i qf [].
Proof.
  induction sched as [|j t IH]; intros qs l qf H; cbn [run_sched] in H.
  - injection H as <- <-. repeat split.
  - destruct (pop_nth j qs) as [[x qs']|] eqn:Ep; [|discriminate].
    destruct (run_sched qs' t) as [[l' qf']|] eqn:Er; [|discriminate]. injection H as <- <-.
    destruct (pop_nth_spec _ _ _ _ Ep) as (H1 & H2 & H3). destruct (IH _ _ _ Er) as (L1 & L2 & L3).
    cbn [length]. split; [now rewrite L1|]. split; [now rewrite L2|].
    intros i. cbn [sel]. destruct (Nat.eqb_spec j i) as [->|Hne].
    + rewrite H1, L3. reflexivity.
    + rewrite <- (H2 i) by lia. apply L3.
Qed.

(* run_sched only moves messages from the queues to the output *)
Lemma pop_nth_Forall {A} (P : A -> Prop) i : forall qs x qs', Forall (Forall P) qs ->
  pop_nth i qs = Some (x, qs') -> P x /\ Forall (Forall P) qs'.
Proof.
  induction i as [|i IH]; intros [|q r] x qs' HF H; cbn [pop_nth] in H; try discriminate;
    inversion HF as [|? ? Hq Hr]; subst.
  - destruct q as [|y q']; [discriminate|]. injection H as <- <-. inversion Hq; subst. auto.
  - destruct (pop_nth i r) as [[y r']|] eqn:E; [|discriminate]. injection H as <- <-.
    destruct (IH _ _ _ Hr E). auto.
Qed.

Lemma run_sched_Forall {A} (P : A -> Prop) sched : forall qs l qf, Forall (Forall P) qs ->
  run_sched qs sched = Some (l, qf) -> Forall P l.
Proof.
  induction sched as [|j t IH]; intros qs l qf HF H; cbn [run_sched] in H.
  - injection H as <- _. constructor.
  - destruct (pop_nth j qs) as [[x qs']|] eqn:Ep; [|discriminate].
    destruct (run_sched qs' t) as [[l' qf']|] eqn:Er; [|discriminate]. injection H as <- _.
    destruct (pop_nth_Forall P _ _ _ _ HF Ep). constructor; eauto.
Qed.

(* whatever the schedule of the writers' Write calls and whatever the segmentation, the reader gets
   whole messages, and the messages of each writer in that writer's order *)
Lemma no_interleave (qs : list (list (list N))) sched l qf cs buflen fuel :
  run_sched qs sched = Some (l, qf) ->
  Forall (fits write_limit) qs -> Forall (fits buflen) qs -> hdr_len <= buflen -> (length l < fuel)%nat ->
  concat cs = wire_of l ->
  tls_reads fuel buflen cs = map TrData l ++ [TrEOF]
  /\ forall i, nth i qs [] = sel i sched l ++ nth i qf [].
Proof.
  intros Hr Hl Hb Hh Hf Hc. split; [|exact (proj2 (proj2 (run_sched_spec _ _ _ _ Hr)))].
  apply one_write_one_read; try assumption; eapply run_sched_Forall; eassumption.
Qed.

Definition all_data (ps : list piece) : Prop :=
  Forall (fun p => match p with PData d => d <> [] | PErr => False end) ps.

Lemma ws_loop_sound ps : forall space acc x, ws_loop space ps acc = WsOk x ->
  x = acc ++ ws_message ps /\ nlen (ws_message ps) <= space /\ all_data ps.
Proof.
  induction ps as [|p ps IH]; intros space acc x H; cbn [ws_loop] in H.
  - injection H as <-. cbn. rewrite app_nil_r. repeat split; [lia|constructor].
  - destruct p as [d|]; [|discriminate].
    destruct (N.eqb_spec (nlen d) 0); [discriminate|].
    destruct (N.leb_spec (nlen d) space); [|discriminate].
    destruct (IH _ _ _ H) as (-> & Hl & Ha). cbn [ws_message]. rewrite nlen_app, <- app_assoc.
    repeat split; [lia|]. constructor; [|exact Ha]. intros ->. cbn in n. lia.
Qed.

Lemma ws_loop_complete ps : forall space acc, all_data ps -> nlen (ws_message ps) <= space ->
  ws_loop space ps acc = WsOk (acc ++ ws_message ps).
Proof.
  induction ps as [|p ps IH]; intros space acc Ha Hl; cbn [ws_loop ws_message].
  - now rewrite app_nil_r.
  - inversion Ha as [|? ? Hp Ha']; subst. destruct p as [d|]; [|contradiction].
    cbn [ws_message] in Hl. rewrite nlen_app in Hl.
    destruct (N.eqb_spec (nlen d) 0) as [E|E]; [destruct d; [contradiction|cbn in E; lia]|].
    destruct (N.leb_spec (nlen d) space); [|lia].
    rewrite IH by (try assumption; lia). now rewrite <- app_assoc.
Qed.

(* whole message or an error, never a truncated success *)
Lemma ws_whole_or_error buflen ps :
  (forall x, ws_read buflen true ps = WsOk x -> x = ws_message ps /\ nlen x <= buflen /\ all_data ps)
  /\ (all_data ps -> nlen (ws_message ps) <= buflen -> ws_read buflen true ps = WsOk (ws_message ps))
  /\ (buflen < nlen (ws_message ps) -> forall x, ws_read buflen true ps <> WsOk x).
Proof.
  unfold ws_read. split; [|split].
  - intros x H. destruct (ws_loop_sound _ _ _ _ H) as (-> & Hl & Ha). cbn [app]. auto.
  - intros Ha Hl. now rewrite ws_loop_complete.
  - intros Hl x H. destruct (ws_loop_sound _ _ _ _ H) as (_ & Hl' & _). lia.
Qed.

Example ex_reads :
  let ms := [[1;2;3]; []; [4]] in
  let w := wire_of ms in
  fits write_limit ms /\ fits 5 ms
  /\ tls_reads 9 5 (cut_at 0 [1;2;6;7;8;9;13;14;18] w) = [TrData [1;2;3]; TrData []; TrData [4]; TrEOF]
  /\ tls_reads 9 5 (map (fun b => [b]) w) = [TrData [1;2;3]; TrData []; TrData [4]; TrEOF]
  /\ tls_reads 9 5 (cut_at 0 [6] (firstn 7 w)) = [TrUnexpectedEOF 2]
  /\ tls_reads 9 5 [firstn 3 w] = [TrUnexpectedEOF 0]
  /\ tls_reads 9 5 [firstn 13 w] = [TrData [1;2;3]; TrData []; TrEOF]
  /\ tls_reads 9 2 [w] = [TrShortBuffer]
  /\ tls_reads 9 5 [[23;3;3;0;6;1;2;3;4;5;6]] = [TrShortBuffer].
Proof.
  split; [repeat constructor; discriminate|]. split; [repeat constructor; discriminate|].
  repeat split; vm_compute; reflexivity.
Qed.

Example ex_sched :
  run_sched [[[1];[2]]; [[7]]] [0;1;0]%nat = Some ([[1];[7];[2]], [[];[]])
  /\ sel 0 [0;1;0]%nat [[1];[7];[2]] = [[1];[2]] /\ sel 1 [0;1;0]%nat [[1];[7];[2]] = [[7]].
Proof. vm_compute. repeat split. Qed.

Example ex_ws :
  ws_read 4 true [PData [1;2]; PData [3;4]] = WsOk [1;2;3;4]
  /\ ws_read 3 true [PData [1;2]; PData [3;4]] = WsNothingMore [1;2;3]
  /\ ws_read 4 true [PData [1;2]; PData [3;4]; PData [5]] = WsNothingMore [1;2;3;4]
  /\ ws_read 9 true [PData [1]; PErr; PData [2]] = WsErr [1]
  /\ ws_read 9 true [] = WsOk [].
Proof. vm_compute. repeat split. Qed.
