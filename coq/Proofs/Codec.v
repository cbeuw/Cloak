(* Proofs about Model/Codec.v (obfuscate / deobfuscate): the explicit Cloak-v2 layout, round
   trip, interoperability, length formula and size limit, no-panic (what the AEAD does and
   does not authenticate: Proofs/CodecAuth.v).  Everything is proved for an arbitrary AEAD satisfying
   [aead_ok] (functional correctness + fixed overhead - no cryptographic assumption) and
   then instantiated for the four methods of MakeObfuscator. *)
From Coq Require Import NArith ZArith List Bool Lia Arith PeanoNat ZifyN ZifyNat ZifyBool.
From Cloak Require Import Gen.Consts Model.Crypto.CBytes Model.Crypto.Salsa20
  Model.Crypto.AES Model.Codec Proofs.ListFacts Proofs.AEAD Proofs.Crypto.
Import ListNotations.
Local Open Scope Z_scope.

(* ---- numbers <-> bytes ---------------------------------------------------------------- *)
Lemma le_num_le_bytes : forall n x,
  le_num (le_bytes n x) = N.land x (N.ones (8 * N.of_nat n)).
Proof.
  induction n as [|n IH]; intros x.
  - cbn [le_bytes le_num fold_right]. change (8 * N.of_nat 0)%N with 0%N.
    cbn [N.ones]. now rewrite N.land_0_r.
  - cbn [le_bytes]. change (le_num (byte_of x :: le_bytes n (N.shiftr x 8)))
      with (N.lor (byte_of x) (N.shiftl (le_num (le_bytes n (N.shiftr x 8))) 8)).
    rewrite IH. unfold byte_of. change 255%N with (N.ones 8).
    apply N.bits_inj. intros i.
    rewrite N.lor_spec, !N.land_spec.
    destruct (N.lt_ge_cases i 8) as [Hi|Hi].
    + rewrite N.shiftl_spec_low by assumption.
      rewrite (N.ones_spec_low 8 i) by assumption.
      rewrite (N.ones_spec_low (8 * N.of_nat (S n)) i) by lia.
      now rewrite orb_false_r.
    + rewrite N.shiftl_spec_high' by assumption.
      rewrite (N.ones_spec_high 8 i) by assumption.
      rewrite N.land_spec, N.shiftr_spec' .
      replace (i - 8 + 8)%N with i by lia.
      rewrite andb_false_r, orb_false_l. f_equal.
      destruct (N.lt_ge_cases i (8 * N.of_nat (S n))) as [Hj|Hj].
      * rewrite !N.ones_spec_low by lia. reflexivity.
      * rewrite !N.ones_spec_high by lia. reflexivity.
Qed.

Lemma be_num_app1 : forall l b, be_num (l ++ [b]) = N.lor (N.shiftl (be_num l) 8) b.
Proof. intros. unfold be_num. now rewrite fold_left_app. Qed.

Lemma be_num_rev : forall l, be_num (rev l) = le_num l.
Proof.
  induction l as [|a l IH]; [reflexivity|].
  cbn [rev]. rewrite be_num_app1, IH. cbn [le_num fold_right]. apply N.lor_comm.
Qed.

Lemma be_num_be_bytes : forall n x, (x < 2 ^ (8 * N.of_nat n))%N -> be_num (be_bytes n x) = x.
Proof.
  intros n x Hx. unfold be_bytes. rewrite be_num_rev, le_num_le_bytes, N.land_ones.
  now apply N.mod_small.
Qed.

(* ---- checked slices --------------------------------------------------------------------- *)
Lemma zlen_app : forall a b, zlen (a ++ b) = zlen a + zlen b.
Proof. intros. unfold zlen. rewrite app_length. lia. Qed.

Lemma zlen_nonneg : forall l, 0 <= zlen l.
Proof. intros. unfold zlen. lia. Qed.

Lemma zslice_ok : forall lo hi l, 0 <= lo -> lo <= hi -> hi <= zlen l ->
  zslice lo hi l = Some (firstn (Z.to_nat (hi - lo)) (skipn (Z.to_nat lo) l)).
Proof.
  intros lo hi l H1 H2 H3. unfold zslice.
  destruct (Z.leb_spec 0 lo); [|lia]. destruct (Z.leb_spec lo hi); [|lia].
  destruct (Z.leb_spec hi (zlen l)); [|lia]. reflexivity.
Qed.

Lemma zslice_to_end : forall lo l, 0 <= lo <= zlen l -> zslice lo (zlen l) l = Some (skipn (Z.to_nat lo) l).
Proof.
  intros lo l H. rewrite zslice_ok by lia. f_equal. apply firstn_all2. unfold zlen in *. rewrite skipn_length. lia.
Qed.

Lemma zindex_ok : forall i l, 0 <= i < zlen l -> zindex i l = Some (nth (Z.to_nat i) l 0%N).
Proof.
  intros i l H. unfold zindex. destruct (Z.leb_spec 0 i); [|lia]. destruct (Z.ltb_spec i (zlen l)); [|lia].
  apply nth_error_nth'. unfold zlen in *. lia.
Qed.


(* the nonce of the AEAD fits into the frame header: what MakeObfuscator checks before it returns
   an Obfuscator ("payload AEAD's nonce size cannot be greater than size of frame header"), and
   all that deobfuscate needs of the cipher to stay inside its slices *)
Definition nonce_fits (c : option aead) : Prop :=
  match c with Some a => Z.of_nat (a_nonce_size a) <= mux_frameHeaderLength | None => True end.

(* deobfuscate without its bounds checks: every slice expression of the code is in range once the
   length guard has passed, so the checked slices are plain firstn/skipn/nth. *)
Lemma decode_with_eq : forall c key msg,
  nonce_fits c ->
  decode_with c key msg =
  if zlen msg <? 22 then Err ErrShort else
  let h := salsa20_xor key (skipn (length msg - 8) msg) (firstn 14 msg) in
  let pld := skipn 14 msg in
  let u := zlen pld - Z.of_N (nth 13 h 0%N) in
  if (u <? 0) || (u >? zlen pld) then Err ErrExtraLen else
  let ok p := Ok (mkFrame (be_num (firstn 4 h)) (be_num (firstn 8 (skipn 4 h))) (nth 12 h 0%N) (firstn (Z.to_nat u) p)) in
  match c with
  | None => ok pld
  | Some a => match a_open a (firstn (a_nonce_size a) h) pld with
              | None => Err ErrAuth
              | Some pt => ok (pt ++ skipn (length pt) pld)
              end
  end.
Proof.
  intros c key msg Hns. unfold decode_with, nonce_fits, mux_frameHeaderLength, mux_salsa20NonceSize in *.
  change (14 + 8) with 22. destruct (Z.ltb_spec (zlen msg) 22) as [|Hl]; [reflexivity|].
  rewrite (zslice_ok 0 14), !zslice_to_end by lia.
  replace (Z.to_nat (zlen msg - 8)) with (length msg - 8)%nat by (unfold zlen; lia).
  change (firstn (Z.to_nat (14 - 0)) (skipn (Z.to_nat 0) msg)) with (firstn 14 msg). change (Z.to_nat 14) with 14%nat.
  set (h := salsa20_xor key (skipn (length msg - 8) msg) (firstn 14 msg)).
  assert (Hh : zlen h = 14) by (unfold h, zlen in *; rewrite salsa20_xor_length, firstn_length; lia).
  rewrite (zslice_ok 0 4), (zslice_ok 4 12), !zindex_ok by lia.
  change (firstn (Z.to_nat (4 - 0)) (skipn (Z.to_nat 0) h)) with (firstn 4 h).
  change (firstn (Z.to_nat (12 - 4)) (skipn (Z.to_nat 4) h)) with (firstn 8 (skipn 4 h)).
  change (Z.to_nat 12) with 12%nat. change (Z.to_nat 13) with 13%nat. cbv zeta.
  set (pld := skipn 14 msg). set (u := zlen pld - Z.of_N (nth 13 h 0%N)).
  destruct (Z.ltb_spec u 0); [reflexivity|]. destruct (Z.gtb_spec u (zlen pld)); [reflexivity|]. cbn [orb].
  destruct c as [a|].
  - rewrite (zslice_ok 0 (Z.of_nat (a_nonce_size a))) by lia. rewrite Z.sub_0_r, Nat2Z.id. cbn [Z.to_nat skipn].
    destruct (a_open a (firstn (a_nonce_size a) h) pld) as [pt|]; [|reflexivity].
    rewrite zslice_ok, Z.sub_0_r by (rewrite ?zlen_app; unfold zlen in *; rewrite ?skipn_length; lia). reflexivity.
  - destruct (N.eqb_spec (nth 13 h 0%N) 0) as [E|_].
    + unfold u. rewrite E, Z.sub_0_r. unfold zlen. rewrite Nat2Z.id, firstn_all. reflexivity.
    + rewrite zslice_ok, Z.sub_0_r by lia. reflexivity.
Qed.

(* ---- the ciphers MakeObfuscator can install ------------------------------------------- *)
Definition aead_ok (a : aead) : Prop :=
  (forall n p, a_open a n (a_seal a n p) = Some p) /\
  (forall n p, length (a_seal a n p) = (length p + a_overhead a)%nat) /\
  (Z.of_nat (a_nonce_size a) <= mux_frameHeaderLength) /\
  (mux_salsa20NonceSize <= Z.of_nat (a_overhead a)).

Definition cipher_ok (c : option aead) : Prop :=
  match c with Some a => aead_ok a | None => True end.

(* tagLen as a function of the method, from the generated Overhead() values *)
Definition method_tag_len (m : method) : Z :=
  match m with
  | Plain => mux_salsa20NonceSize
  | AES256GCM => mux_overhead_aes256gcm
  | ChaCha20Poly1305 => mux_overhead_chacha20poly1305
  | AES128GCM => mux_overhead_aes128gcm
  end.

Lemma tag_len_of_method : forall m key, tag_len_of (payload_cipher m key) = method_tag_len m.
Proof. intros [] key; reflexivity. Qed.

Lemma aead_ok_16_12 : forall seal open,
  (forall n p, open n (seal n p) = Some p) -> (forall n p, length (seal n p) = length p + 16)%nat ->
  aead_ok (mkAEAD seal open 16 12).
Proof. intros seal open H1 H2. repeat split; [exact H1 | exact H2 | discriminate | discriminate]. Qed.

(* over the generated constants: every Overhead() Go reports is 16 and every NonceSize() 12, which
   fits into the 14-byte header; stops compiling if the source constants change *)
Lemma payload_cipher_ok : forall m key, cipher_ok (payload_cipher m key).
Proof.
  intros [] key; cbn [payload_cipher cipher_ok].
  - exact I.
  - apply aead_ok_16_12; intros; [apply gcm_open_seal | apply gcm_seal_length].
  - apply aead_ok_16_12; intros; [apply chachapoly_open_seal | apply chachapoly_seal_length].
  - apply aead_ok_16_12; intros; [apply gcm_open_seal | apply gcm_seal_length].
Qed.

Lemma make_obfuscator_known : forall m key,
  make_obfuscator (method_code m) key = Some (payload_cipher m key).
Proof. intros [] key; reflexivity. Qed.

Lemma make_obfuscator_unknown : forall code key,
  method_of_code code = None -> make_obfuscator code key = None.
Proof. intros code key H. unfold make_obfuscator. now rewrite H. Qed.

(* ---- the explicit Cloak-v2 layout ----------------------------------------------------- *)
(* header (14 bytes, before encryption) = StreamID(4, BE) | Seq(8, BE) | Closing(1) | extraLen(1)
   body   = AEAD: Seal(key', nonce = header[:12], payload ++ pad)      extraLen = |pad| + 16
            plain: payload ++ pad ++ tail8                              extraLen = |pad| + 8
   message = (header xor Salsa20(sessionKey, nonce = last 8 bytes of body)[:14]) ++ body *)
Definition last8 (l : list N) : list N := skipn (length l - 8) l.

(* the three slices deobfuscate takes of header ++ body *)
Lemma message_parts : forall (H B : list N), length H = 14%nat -> (8 <= length B)%nat ->
  firstn 14 (H ++ B) = H /\ skipn 14 (H ++ B) = B /\ skipn (length (H ++ B) - 8) (H ++ B) = last8 B.
Proof.
  intros H B HH HB. repeat split.
  - apply firstn_app_exact, HH.
  - apply skipn_app_exact, HH.
  - rewrite app_length, skipn_app_ge by lia. unfold last8. f_equal. lia.
Qed.

Definition v2_body (c : option aead) (header payload pad tail : list N) : list N :=
  match c with
  | Some a => a_seal a (firstn (a_nonce_size a) header) (payload ++ pad)
  | None => payload ++ pad ++ tail
  end.

Definition v2_message (c : option aead) (key : list N) (sid seq closing : N)
  (payload pad tail : list N) : list N :=
  let header := header_bytes sid seq closing (zlen pad + tag_len_of c) in
  let body := v2_body c header payload pad tail in
  salsa20_xor key (last8 body) header ++ body.

Lemma header_bytes_length : forall sid seq closing extra,
  length (header_bytes sid seq closing extra) = 14%nat.
Proof. intros. unfold header_bytes. rewrite !app_length, !be_bytes_length. reflexivity. Qed.

Lemma v2_body_length : forall c header payload pad tail,
  cipher_ok c -> (c = None -> zlen tail = mux_salsa20NonceSize) ->
  zlen (v2_body c header payload pad tail) = zlen payload + zlen pad + tag_len_of c.
Proof.
  intros [a|] header payload pad tail Hok Ht; cbn [v2_body tag_len_of].
  - destruct Hok as [_ [Hlen _]]. unfold zlen. rewrite Hlen, app_length. lia.
  - rewrite !zlen_app, Ht by reflexivity. lia.
Qed.

Lemma tag_len_covers_nonce : forall c, cipher_ok c -> mux_salsa20NonceSize <= tag_len_of c.
Proof. intros [a|] H; cbn [tag_len_of]; [apply H | lia]. Qed.

Lemma cipher_ok_nonce : forall c, cipher_ok c ->
  nonce_fits c.
Proof. intros [a|] H; [apply H | exact I]. Qed.

Lemma v2_message_length : forall c key sid seq closing payload pad tail,
  cipher_ok c -> (c = None -> zlen tail = mux_salsa20NonceSize) ->
  zlen (v2_message c key sid seq closing payload pad tail) =
  mux_frameHeaderLength + zlen payload + zlen pad + tag_len_of c.
Proof.
  intros. unfold v2_message. rewrite zlen_app, v2_body_length by assumption.
  unfold zlen at 1. rewrite salsa20_xor_length, header_bytes_length.
  unfold mux_frameHeaderLength. lia.
Qed.

(* obfuscate produces exactly this layout *)
Lemma encode_with_layout : forall c key f padLen rnd,
  cipher_ok c -> (1 <= length (f_payload f))%nat -> zlen rnd = Z.of_N padLen + tag_len_of c ->
  encode_with c key f padLen rnd =
  Some (v2_message c key (f_sid f) (f_seq f) (f_closing f) (f_payload f)
          (firstn (N.to_nat padLen) rnd) (skipn (N.to_nat padLen) rnd)).
Proof.
  intros c key f padLen rnd Hok Hne Hrnd. unfold encode_with.
  destruct (Nat.eqb_spec (length (f_payload f)) 0); [lia|]. clear Hne.
  pose proof (tag_len_covers_nonce c Hok) as Htag. unfold mux_salsa20NonceSize in Htag.
  destruct (Z.eqb_spec (zlen rnd) (Z.of_N padLen + tag_len_of c)) as [_|Hn]; [|lia]. cbn [negb].
  assert (Hpadlen : zlen (firstn (N.to_nat padLen) rnd) = Z.of_N padLen).
  { unfold zlen in *. rewrite firstn_length. lia. }
  unfold v2_message. rewrite Hpadlen.
  set (header := header_bytes (f_sid f) (f_seq f) (f_closing f) (Z.of_N padLen + tag_len_of c)).
  assert (Hbody : (match c with
                   | Some a => a_seal a (firstn (a_nonce_size a) header) (f_payload f ++ firstn (N.to_nat padLen) rnd)
                   | None => f_payload f ++ rnd end) =
                  v2_body c header (f_payload f) (firstn (N.to_nat padLen) rnd) (skipn (N.to_nat padLen) rnd)).
  { destruct c; cbn [v2_body]; [reflexivity|]. now rewrite firstn_skipn. }
  rewrite Hbody.
  set (body := v2_body c header (f_payload f) (firstn (N.to_nat padLen) rnd) (skipn (N.to_nat padLen) rnd)).
  assert (Hbl : zlen body = zlen (f_payload f) + Z.of_N padLen + tag_len_of c).
  { unfold body. rewrite v2_body_length; [lia | assumption |].
    intros ->. cbn [tag_len_of] in *. unfold zlen in *. rewrite skipn_length. unfold mux_salsa20NonceSize in *. lia. }
  destruct (message_parts header body) as (_ & _ & E); [apply header_bytes_length | |].
  - pose proof (zlen_nonneg (f_payload f)). unfold zlen in *. lia.
  - change (Z.to_nat mux_salsa20NonceSize) with 8%nat. rewrite E. reflexivity.
Qed.

Lemma header_fields : forall sid seq closing extra,
  let h := header_bytes sid seq closing extra in
  firstn 4 h = be_bytes 4 sid /\ firstn 8 (skipn 4 h) = be_bytes 8 seq /\
  nth 12 h 0%N = byte_of closing /\ nth 13 h 0%N = Z.to_N (extra mod 256).
Proof. intros. unfold h, header_bytes, be_bytes. cbn [le_bytes rev app]. repeat split; reflexivity. Qed.

Lemma byte_of_small : forall b, (b < 256)%N -> byte_of b = b.
Proof.
  intros b H. unfold byte_of. change 255%N with (N.ones 8). rewrite N.land_ones. now apply N.mod_small.
Qed.

(* ---- interoperability: deobfuscate accepts every message of that layout ----------------- *)
Lemma decode_with_layout : forall c key sid seq closing payload pad tail,
  cipher_ok c -> (sid < 2 ^ 32)%N -> (seq < 2 ^ 64)%N -> (closing < 256)%N ->
  zlen pad + tag_len_of c <= mux_maxExtraLen ->
  (c = None -> zlen tail = mux_salsa20NonceSize) ->
  decode_with c key (v2_message c key sid seq closing payload pad tail) =
  Ok (mkFrame sid seq closing payload).
Proof.
  intros c key sid seq closing payload pad tail Hok Hsid Hseq Hcl Hextra Htail.
  pose proof (tag_len_covers_nonce c Hok) as Htag. unfold v2_message.
  set (extra := zlen pad + tag_len_of c) in *.
  set (header := header_bytes sid seq closing extra).
  set (body := v2_body c header payload pad tail).
  assert (Hbl : zlen body = zlen payload + extra) by (unfold extra, body; rewrite v2_body_length by assumption; lia).
  set (H' := salsa20_xor key (last8 body) header).
  assert (HH' : length H' = 14%nat) by (unfold H'; rewrite salsa20_xor_length; apply header_bytes_length).
  unfold mux_salsa20NonceSize, mux_maxExtraLen, zlen in *.
  rewrite decode_with_eq by (apply cipher_ok_nonce, Hok).
  destruct (message_parts H' body HH') as (E1 & E2 & E3); [lia|].
  rewrite E1, E2, E3. unfold H'. rewrite salsa20_xor_involutive. fold H'.
  destruct (header_fields sid seq closing extra) as (F1 & F2 & F3 & F4). fold header in F1, F2, F3, F4.
  rewrite F1, F2, F3, F4, !be_num_be_bytes, byte_of_small by assumption.
  rewrite Z2N.id, Z.mod_small by (try apply Z.mod_pos_bound; lia).
  unfold zlen. rewrite app_length, HH'. destruct (Z.ltb_spec (Z.of_nat (14 + length body)) 22); [lia|].
  replace (Z.of_nat (length body) - extra) with (Z.of_nat (length payload)) by lia. rewrite Nat2Z.id.
  destruct (Z.ltb_spec (Z.of_nat (length payload)) 0); [lia|].
  destruct (Z.gtb_spec (Z.of_nat (length payload)) (Z.of_nat (length body))); [lia|]. cbn [orb]. cbv zeta.
  destruct c as [a|]; unfold body; cbn [v2_body].
  - destruct Hok as [Hopen _]. rewrite Hopen, <- app_assoc, firstn_app_exact by reflexivity. reflexivity.
  - rewrite firstn_app_exact by reflexivity. reflexivity.
Qed.

(* ---- round trip, length, size limit ----------------------------------------------------- *)
Lemma encode_with_some_inv : forall c key f padLen rnd msg,
  encode_with c key f padLen rnd = Some msg ->
  (1 <= length (f_payload f))%nat /\ zlen rnd = Z.of_N padLen + tag_len_of c.
Proof.
  intros c key f padLen rnd msg. unfold encode_with.
  destruct (Nat.eqb_spec (length (f_payload f)) 0); [discriminate|].
  destruct (Z.eqb_spec (zlen rnd) (Z.of_N padLen + tag_len_of c)) as [He|Hn]; cbn [negb]; [|discriminate].
  intros _. split; [lia | assumption].
Qed.

Lemma rnd_split_lengths : forall c padLen rnd,
  zlen rnd = Z.of_N padLen + tag_len_of c ->
  zlen (firstn (N.to_nat padLen) rnd) = Z.of_N padLen /\
  zlen (skipn (N.to_nat padLen) rnd) = tag_len_of c.
Proof.
  intros c padLen rnd H.
  assert (0 <= tag_len_of c) by (destruct c; cbn [tag_len_of]; [lia | discriminate]).
  unfold zlen in *. rewrite firstn_length, skipn_length. lia.
Qed.

Lemma encode_with_length : forall c key f padLen rnd msg,
  cipher_ok c -> encode_with c key f padLen rnd = Some msg ->
  zlen msg = mux_frameHeaderLength + zlen (f_payload f) + Z.of_N padLen + tag_len_of c.
Proof.
  intros c key f padLen rnd msg Hok He.
  destruct (encode_with_some_inv _ _ _ _ _ _ He) as [Hne Hrnd].
  rewrite encode_with_layout in He by assumption. injection He as <-.
  destruct (rnd_split_lengths c padLen rnd Hrnd) as [L1 L2].
  rewrite v2_message_length; [rewrite L1; reflexivity | assumption |].
  intros ->. exact L2.
Qed.

Lemma roundtrip_with : forall c key f padLen rnd,
  cipher_ok c ->
  (f_sid f < 2 ^ 32)%N -> (f_seq f < 2 ^ 64)%N -> (f_closing f < 256)%N ->
  (1 <= length (f_payload f))%nat ->
  Z.of_N padLen <= mux_maxExtraLen - tag_len_of c ->
  zlen rnd = Z.of_N padLen + tag_len_of c ->
  exists msg, encode_with c key f padLen rnd = Some msg /\ decode_with c key msg = Ok f /\
    zlen msg = mux_frameHeaderLength + zlen (f_payload f) + Z.of_N padLen + tag_len_of c.
Proof.
  intros c key f padLen rnd Hok Hsid Hseq Hcl Hne Hpad Hrnd.
  pose proof (encode_with_layout c key f padLen rnd Hok Hne Hrnd) as He.
  destruct (rnd_split_lengths c padLen rnd Hrnd) as [L1 L2].
  eexists. split; [exact He|]. split; [|exact (encode_with_length _ _ _ _ _ _ Hok He)].
  rewrite decode_with_layout; try assumption.
  - destruct f; reflexivity.
  - rewrite L1. lia.
  - intros ->. exact L2.
Qed.

(* over the generated constants: padding + tag fits the one-byte extra-length field, for every
   value RandInt(maxExtraLen - tagLen + 1) can return *)
Theorem extra_len_fits_byte : forall m key (draw : N),
  Z.of_N draw < rand_bound (payload_cipher m key) ->
  Z.of_N draw + method_tag_len m < 256 /\ Z.of_N draw <= mux_maxExtraLen - method_tag_len m.
Proof.
  intros m key draw H. unfold rand_bound in H. rewrite tag_len_of_method in H.
  destruct m; cbn [method_tag_len] in *;
    unfold mux_maxExtraLen, mux_salsa20NonceSize, mux_overhead_aes256gcm, mux_overhead_aes128gcm,
      mux_overhead_chacha20poly1305 in *; lia.
Qed.

Theorem padding_threshold : forall seq draw,
  (Z.of_N seq < mux_padFirstNFrames -> pad_len seq draw = draw) /\
  (mux_padFirstNFrames <= Z.of_N seq -> pad_len seq draw = 0%N).
Proof.
  intros seq draw. unfold pad_len.
  destruct (Z.ltb_spec (Z.of_N seq) mux_padFirstNFrames); split; intros; try reflexivity; lia.
Qed.

(* message size never exceeds the limit from which maxStreamUnitWrite was derived *)
Lemma size_limit_with : forall (limit : Z) c key f padLen rnd msg, cipher_ok c ->
  zlen (f_payload f) <= max_stream_unit_write limit ->
  Z.of_N padLen <= mux_maxExtraLen - tag_len_of c ->
  encode_with c key f padLen rnd = Some msg ->
  zlen msg <= limit.
Proof.
  intros limit c key f padLen rnd msg Hok Hp Hpad He.
  rewrite (encode_with_length _ _ _ _ _ _ Hok He). unfold max_stream_unit_write in Hp. lia.
Qed.

Lemma pad_len_le : forall m key seq draw,
  Z.of_N draw < rand_bound (payload_cipher m key) ->
  Z.of_N (pad_len seq draw) <= mux_maxExtraLen - method_tag_len m.
Proof.
  intros m key seq draw H. destruct (extra_len_fits_byte m key draw H) as [_ Hd].
  unfold pad_len. destruct (Z.of_N seq <? mux_padFirstNFrames); lia.
Qed.

(* obfuscate as a whole: whatever RandInt and rand.Read return, for every sequence number *)
Theorem obfuscate_roundtrip : forall m key f (draw : N) rnd (limit : Z),
  (f_sid f < 2 ^ 32)%N -> (f_seq f < 2 ^ 64)%N -> (f_closing f < 256)%N ->
  (1 <= length (f_payload f))%nat -> zlen (f_payload f) <= max_stream_unit_write limit ->
  Z.of_N draw < rand_bound (payload_cipher m key) ->
  zlen rnd = Z.of_N (pad_len (f_seq f) draw) + method_tag_len m ->
  exists msg, obfuscate m key f draw rnd = Some msg /\ decode m key msg = Ok f /\ zlen msg <= limit.
Proof.
  intros m key f draw rnd limit Hsid Hseq Hcl Hp Hlim Hdraw Hrnd.
  pose proof (pad_len_le m key (f_seq f) draw Hdraw) as Hpl. rewrite <- (tag_len_of_method m key) in *.
  destruct (roundtrip_with _ key f _ rnd (payload_cipher_ok m key) Hsid Hseq Hcl Hp Hpl Hrnd) as (msg & He & Hd & Hl).
  exists msg. split; [exact He|]. split; [exact Hd|]. unfold max_stream_unit_write in Hlim. lia.
Qed.

(* the two limits in use, and Session.Close's closing frame (payload 1..256 bytes) *)
Lemma max_stream_unit_write_values :
  max_stream_unit_write client_appDataMaxLength = mux_maxStreamUnitWrite_16401 /\
  max_stream_unit_write server_appDataMaxLength = mux_maxStreamUnitWrite_16401 /\
  max_stream_unit_write mux_defaultMaxOnWireSize = mux_default_maxStreamUnitWrite /\
  256 <= mux_maxStreamUnitWrite_16401 /\ 256 <= mux_default_maxStreamUnitWrite /\
  mux_defaultMaxOnWireSize <= common_tlsconn_write_limit /\
  client_appDataMaxLength <= common_tlsconn_write_limit.
Proof. vm_compute. repeat split; discriminate. Qed.

(* ---- deobfuscate never panics ----------------------------------------------------------- *)
Lemma decode_with_no_panic : forall c key msg,
  nonce_fits c ->
  decode_with c key msg <> Panic.
Proof.
  intros c key msg Hns. rewrite decode_with_eq by exact Hns. cbv zeta.
  destruct (zlen msg <? 22); [discriminate|]. destruct (_ || _); [discriminate|].
  destruct c as [a|]; [destruct (a_open a _ _)|]; discriminate.
Qed.

(* ---- encode and decode evaluated on one frame, for each method, with the real ciphers: the
        conclusion of roundtrip_with seen by computation (extraction is not the only path on
        which the ciphers run) ---------------------------------------------------------------- *)
Definition ex_key : list N := nrange 0 32.
Definition ex_frame : frame := mkFrame 0xdeadbeef 4 1 [104; 101; 108; 108; 111]%N.
Definition ex_rnd (m : method) : list N := nrange 200 (3 + Z.to_nat (method_tag_len m)).

Definition roundtrips (m : method) : bool :=
  match encode m ex_key ex_frame 3%N (ex_rnd m) with
  | Some msg =>
      match decode m ex_key msg with
      | Ok f => (f_sid f =? f_sid ex_frame)%N && (f_seq f =? 4)%N && (f_closing f =? 1)%N &&
                bytes_eqb (f_payload f) (f_payload ex_frame) &&
                (zlen msg =? 14 + 5 + 3 + method_tag_len m)
      | _ => false
      end
  | None => false
  end.
Example roundtrip_instances :
  roundtrips Plain = true /\ roundtrips AES256GCM = true /\
  roundtrips ChaCha20Poly1305 = true /\ roundtrips AES128GCM = true.
Proof. vm_compute. repeat split. Qed.

(* error paths of deobfuscate are reachable *)
Example decode_errors :
  decode ChaCha20Poly1305 ex_key (nrange 0 21) = Err ErrShort /\
  decode ChaCha20Poly1305 ex_key (nrange 0 40) = Err ErrExtraLen /\
  decode ChaCha20Poly1305 ex_key (nrange 0 300) = Err ErrAuth.
Proof. vm_compute. repeat split. Qed.
