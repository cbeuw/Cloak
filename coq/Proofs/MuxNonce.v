(* C13: the (stream id, sequence number) pairs of all stream frames one endpoint puts on the wire
   are pairwise distinct - with the per-session key this is the uniqueness of the AEAD nonce. *)
From Coq Require Import NArith ZArith List Bool Lia.
From Coq Require Import ZifyN ZifyBool.
From Cloak Require Import Model.Reorder Model.Mux Proofs.MuxView
  Proofs.MuxData.
Import ListNotations.
Local Open Scope N_scope.

Definition side_frames (s : side) (evs : list ev) : list wframe :=
  flat_map (fun e => match e with
                     | EFrame x _ fr => if side_eqb x s && negb (w_cl fr =? 2) then [fr] else []
                     | _ => [] end) evs.
(* every stream frame of side s, in emission order (session-closing notices excluded) *)
Definition all_frames (s : side) (os : list (list ev)) : list wframe := flat_map (side_frames s) os.

Lemma filter_flat_map {A B} (p : B -> bool) (f : A -> list B) l :
  filter p (flat_map f l) = flat_map (fun a => filter p (f a)) l.
Proof. induction l as [|a t IH]; cbn; [reflexivity|]. now rewrite filter_app, IH. Qed.

Lemma ev_frames_filter s sid evs :
  ev_frames s sid evs = filter (fun fr => w_sid fr =? sid) (side_frames s evs).
Proof.
  unfold MuxView.ev_frames, side_frames. rewrite filter_flat_map. apply flat_map_ext. intros e.
  destruct e as [x c fr| | |]; try reflexivity. unfold MuxView.keep.
  destruct (side_eqb x s); cbn [andb]; [|reflexivity].
  destruct (w_cl fr =? 2); cbn [negb andb filter]; [now rewrite andb_false_r|].
  rewrite andb_true_r. destruct (w_sid fr =? sid); reflexivity.
Qed.
Lemma run_frames_filter s sid os :
  run_frames s sid os = filter (fun fr => w_sid fr =? sid) (all_frames s os).
Proof.
  unfold all_frames. induction os as [|evs t IH]; cbn; [reflexivity|].
  now rewrite filter_app, IH, ev_frames_filter.
Qed.

Lemma nodup_by_key {A} (g h : A -> N) (L : list A) :
  (forall a, NoDup (map h (filter (fun x => g x =? a) L))) -> NoDup (map (fun x => (g x, h x)) L).
Proof.
  induction L as [|x t IH]; intros H; cbn; [constructor|]. constructor.
  - intros Hin. apply in_map_iff in Hin as (y & Heq & Hy). injection Heq as Hg Hh.
    specialize (H (g x)). cbn in H. rewrite N.eqb_refl in H. cbn in H. inversion H as [|? ? Hn _]; subst.
    apply Hn. apply in_map_iff. exists y. split; [exact Hh|]. apply filter_In. split; [exact Hy|lia].
  - apply IH. intros a. specialize (H a). cbn in H. destruct (g x =? a); [cbn in H; inversion H; assumption|exact H].
Qed.

Lemma nodup_numbered {A} (h : A -> N) (L : list A) :
  (forall i x, nth_error L i = Some x -> h x = N.of_nat i) -> NoDup (map h L).
Proof.
  intros H. apply NoDup_nth_error. intros i j Hi Heq. rewrite map_length in Hi.
  rewrite !nth_error_map in Heq.
  destruct (nth_error L i) as [x|] eqn:Ex; [|apply nth_error_None in Ex; lia].
  destruct (nth_error L j) as [y|] eqn:Ey; [|discriminate]. cbn in Heq. injection Heq as Heq.
  rewrite (H _ _ Ex), (H _ _ Ey) in Heq. lia.
Qed.

Theorem nonces_unique k sp u ta tb s ls :
  fresh_run (init k sp u ta tb) ls ->
  (forall sid, nE (run_frames s sid (outputs k sp u ta tb ls)) + 2 < two64) ->
  NoDup (map (fun fr => (w_sid fr, w_seq fr)) (all_frames s (outputs k sp u ta tb ls))).
Proof.
  intros Hf Hb. apply nodup_by_key. intros sid. rewrite <- run_frames_filter.
  apply nodup_numbered. intros i fr Hn.
  destruct (frames_numbered k sp u ta tb s sid ls Hf (Hb sid) i fr Hn) as (Hs & _). exact Hs.
Qed.
