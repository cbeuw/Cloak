(* Whether frames of one direction of one stream are still on the wire, and whether the reader's
   stream object is still open: the vocabulary of the completeness statements (C01 "nothing is
   lost", C03 "the end-of-stream is delivered"; the invariant is LV in Proofs/MuxLive.v). *)
From Coq Require Import NArith ZArith List Bool Lia Sorting.Permutation.
From Cloak Require Import Model.Reorder Model.Mux Proofs.MuxView.
Import ListNotations.
Local Open Scope N_scope.

Section Cov.
Variable s : side.
Variable sid : N.
Notation rview := (rview s sid).
Notation vstep := (vstep s sid).

Definition onwire (IF : list wframe) (i : N) : Prop := exists fr, In fr IF /\ w_seq fr = i.
(* the receiver's stream object is not closed *)
Definition ron (v : option (rbuf * bool)) : Prop := match v with Some (_, true) => False | _ => True end.

Lemma onwire_perm l l' i : Permutation l l' -> onwire l i -> onwire l' i.
Proof. intros Hp (fr & Hin & Hs). exists fr. split; [eapply Permutation_in; eauto|exact Hs]. Qed.

Lemma rclose_ron a b : rclose a b -> ron b -> ron a /\ b = a.
Proof.
  intros [->|(rb & -> & ->)] Hr; [auto|]. destruct Hr.
Qed.

(* a closed stream object stays closed *)
Lemma ron_back b y a y' : vstep b y a y' -> ron (rview y') -> ron (rview y).
Proof.
  intros Hv Hr.
  destruct Hv as [y y' (Hp & Hsc & Hrc)
                 |y y' q w pay Hs1 Hs2 Hp Hr2
                 |y y' q w Hs1 Hs2 Hp Hrc
                 |y y' q w w' Hs1 Hs2 Hp Hrc
                 |y y' l Hbt Hp Hs2 Hr2
                 |y y' fr rb c Hr1 Hr2 Hi2 Hs2
                 |y y' rb c k d rb' Hr1 Hrd Hr2 Hi2 Hs2
                 |y y' Hs1 Hs2 Hi2 Hr2
                 |y y' Hr1 Hr2 Hi2 Hs2].
  - apply (rclose_ron _ _ Hrc Hr).
  - now rewrite <- Hr2.
  - apply (rclose_ron _ _ Hrc Hr).
  - apply (rclose_ron _ _ Hrc Hr).
  - now rewrite <- Hr2.
  - rewrite Hr1. rewrite Hr2 in Hr. exact Hr.
  - rewrite Hr1. rewrite Hr2 in Hr. exact Hr.
  - now rewrite <- Hr2.
  - now rewrite Hr1.
Qed.
End Cov.
