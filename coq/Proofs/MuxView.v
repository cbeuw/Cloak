(* The view of one direction of one stream (sender side s, stream id sid, receiver = other s)
   inside the session-pair model: the frames in flight, the sender's half of its stream object, the
   receiver's half of its own.  A step of the model is either QUIET for the view (it may only close
   things) or one of a few visible actions (vstep): emit a frame, lose frames with their connection,
   hand a frame to the receiver's re-sequencer, read, create a stream object.  Which actions each
   building block performs is Proofs/MuxEffect.v. *)
From Coq Require Import NArith ZArith List Bool Lia Sorting.Permutation.
From Coq Require Import ZifyN ZifyBool.
From Cloak Require Import Model.Reorder Model.Mux Proofs.MuxBase.
Import ListNotations.
Local Open Scope N_scope.

Section View.
Variable s : side.
Variable sid : N.
Let o := other s.

(* frames of this stream (not session-closing notices) *)
Definition keep (fr : wframe) : bool := (w_sid fr =? sid) && negb (w_cl fr =? 2).

(* frames of this direction that are in flight towards the receiver *)
Definition inflight (y : sys) : list wframe :=
  flat_map (fun c => filter keep (conn_q c o)) (sy_conns y).

(* the sender's half of the sender's Stream object / the receiver's half of the receiver's *)
Definition sview (y : sys) : option (N * N * bool) :=
  option_map (fun st => (st_seq st, st_wcl st, st_closed st)) (lookup sid (se_objs (sess y s))).
Definition rview (y : sys) : option (rbuf * bool) :=
  option_map (fun st => (st_rb st, st_closed st)) (lookup sid (se_objs (sess y o))).

(* "may only have been closed" *)
Definition sclose (a b : option (N * N * bool)) : Prop :=
  b = a \/ exists q w w', a = Some (q, w, false) /\ b = Some (q, w', true).
Definition rclose (a b : option (rbuf * bool)) : Prop :=
  b = a \/ exists rb, a = Some (rb, false) /\ b = Some (rb_close rb, true).

Definition quiet (y y' : sys) : Prop :=
  Permutation (inflight y) (inflight y') /\ sclose (sview y) (sview y') /\ rclose (rview y) (rview y').

Lemma sclose_refl a : sclose a a. Proof. now left. Qed.
Lemma rclose_refl a : rclose a a. Proof. now left. Qed.
Lemma sclose_trans a b c : sclose a b -> sclose b c -> sclose a c.
Proof.
  intros [->|(q & w & w' & -> & ->)] [->|(q2 & w2 & w2' & H1 & ->)].
  - now left.
  - right. eauto.
  - right. eauto.
  - discriminate.
Qed.
Lemma rclose_trans a b c : rclose a b -> rclose b c -> rclose a c.
Proof.
  intros [->|(rb & -> & ->)] [->|(rb2 & H1 & ->)].
  - now left.
  - right. eauto.
  - right. eauto.
  - discriminate.
Qed.
Lemma quiet_refl y : quiet y y.
Proof. split; [reflexivity|split; [apply sclose_refl|apply rclose_refl]]. Qed.
Lemma quiet_trans a b c : quiet a b -> quiet b c -> quiet a c.
Proof.
  intros (P1 & S1 & R1) (P2 & S2 & R2).
  split; [etransitivity; eauto|split; [eapply sclose_trans; eauto|eapply rclose_trans; eauto]].
Qed.

(* views only look at three things *)
Lemma quiet_same y y' :
  sy_conns y' = sy_conns y -> se_objs (sess y' s) = se_objs (sess y s) ->
  se_objs (sess y' o) = se_objs (sess y o) -> quiet y y'.
Proof.
  intros Hc Hs Ho. unfold quiet, inflight, sview, rview. rewrite Hc, Hs, Ho.
  split; [reflexivity|split; [apply sclose_refl|apply rclose_refl]].
Qed.

Lemma inflight_set_sess y x se : inflight (set_sess y x se) = inflight y.
Proof. unfold inflight. now rewrite conns_set_sess. Qed.
Lemma inflight_set_pend y p : inflight (set_pend y p) = inflight y.
Proof. reflexivity. Qed.
Lemma inflight_set_now y t : inflight (set_now y t) = inflight y.
Proof. reflexivity. Qed.

Lemma inflight_conns_q y cs :
  map (fun c => conn_q c o) cs = map (fun c => conn_q c o) (sy_conns y) ->
  inflight (set_conns y cs) = inflight y.
Proof.
  unfold inflight. cbn. intros H. rewrite !flat_map_concat_map.
  f_equal. rewrite <- (map_map (fun c => conn_q c o) (filter keep)), <- (map_map (fun c => conn_q c o) (filter keep) (sy_conns y)).
  now rewrite H.
Qed.

Lemma conn_le_q x a b : conn_le x a b -> conn_q b o = conn_q a o.
Proof. unfold conn_le. intros (H1 & H2 & _). destruct o; cbn; assumption. Qed.

Lemma close_ends_q x pool cs :
  map (fun c => conn_q c o) (fst (close_ends x pool cs)) = map (fun c => conn_q c o) cs.
Proof.
  apply map_ext_nthN; [apply close_ends_length|]. intros n a Hn.
  destruct (close_ends_le x pool cs _ _ Hn) as (b & Hb & Hle). exists b. split; [exact Hb|eapply conn_le_q; eauto].
Qed.

Lemma sview_set_other y se : sview (set_sess y o se) = sview y.
Proof. unfold sview. unfold o. rewrite sess_set. destruct s; reflexivity. Qed.
Lemma rview_set_other y se : rview (set_sess y s se) = rview y.
Proof. unfold rview. unfold o. rewrite sess_set. destruct s; reflexivity. Qed.

Definition to_frame (fr : wframe) : frame := mkF (w_seq fr) (negb (w_cl fr =? 0)) (w_pay fr).

Inductive act :=
| AQuiet
| AEmit (fr : wframe)        (* data frame numbered and put on the wire; stream stays open *)
| ACloseEmit (fr : wframe)   (* closing frame numbered and put on the wire; stream now closed *)
| ALost                      (* a number was consumed, nothing reached the wire; stream now closed *)
| ADrop (l : list wframe)    (* frames left the wire without being processed (connection reset) *)
| AArrive (fr : wframe)      (* a frame was written into the receiver's re-sequencer *)
| ARead (k : nat) (d : list N)
| ACreateS | ACreateR.

(* [b] = whether frames may leave the wire unprocessed (a connection reset): only [VDrop] needs it *)
Inductive vstep (b : bool) : sys -> act -> sys -> Prop :=
| VQuiet y y' : quiet y y' -> vstep b y AQuiet y'
| VEmit y y' q w pay :
    sview y = Some (q, w, false) -> sview y' = Some (q + 1, w, false) ->
    Permutation (inflight y') (mkW sid q w pay :: inflight y) -> rview y' = rview y ->
    vstep b y (AEmit (mkW sid q w pay)) y'
| VCloseEmit y y' q w :
    sview y = Some (q, w, false) -> sview y' = Some (q + 1, 1, true) ->
    Permutation (inflight y') (mkW sid q 1 [] :: inflight y) -> rclose (rview y) (rview y') ->
    vstep b y (ACloseEmit (mkW sid q 1 [])) y'
| VLost y y' q w w' :
    sview y = Some (q, w, false) -> sview y' = Some (q + 1, w', true) ->
    Permutation (inflight y) (inflight y') -> rclose (rview y) (rview y') ->
    vstep b y ALost y'
| VDrop y y' l :
    b = true -> Permutation (inflight y) (l ++ inflight y') -> sview y' = sview y -> rview y' = rview y ->
    vstep b y (ADrop l) y'
| VArrive y y' fr rb c :
    rview y = Some (rb, c) -> rview y' = Some (fst (fst (rb_write rb (to_frame fr))), c) ->
    inflight y' = inflight y -> sview y' = sview y ->
    vstep b y (AArrive fr) y'
| VRead y y' rb c k d rb' :
    rview y = Some (rb, c) -> rb_read rb k = (rb', RdData d) -> rview y' = Some (rb', c) ->
    inflight y' = inflight y -> sview y' = sview y ->
    vstep b y (ARead k d) y'
| VCreateS y y' :
    sview y = None -> sview y' = Some (0, 0, false) -> inflight y' = inflight y -> rview y' = rview y ->
    vstep b y ACreateS y'
| VCreateR y y' :
    rview y = None -> rview y' = Some (rb_init 0, false) -> inflight y' = inflight y -> sview y' = sview y ->
    vstep b y ACreateR y'.

Inductive vsteps (b : bool) : sys -> list act -> sys -> Prop :=
| VS_nil y : vsteps b y [] y
| VS_cons y a y1 l y2 : vstep b y a y1 -> vsteps b y1 l y2 -> vsteps b y (a :: l) y2.

Lemma vsteps_app b y l1 y1 l2 y2 : vsteps b y l1 y1 -> vsteps b y1 l2 y2 -> vsteps b y (l1 ++ l2) y2.
Proof. induction 1; cbn; [auto|]. intros H2. econstructor; eauto. Qed.
Lemma vsteps_one b y a y' : vstep b y a y' -> vsteps b y [a] y'.
Proof. intros H. econstructor; [exact H|constructor]. Qed.
Lemma vstep_weaken b y a y' : vstep false y a y' -> vstep b y a y'.
Proof. intros H. destruct H; try (econstructor; eassumption). discriminate. Qed.
Lemma vsteps_weaken b y l y' : vsteps false y l y' -> vsteps b y l y'.
Proof. induction 1; econstructor; eauto using vstep_weaken. Qed.

(* what the actions put on the wire / returned to the reader *)
Definition emitted (l : list act) : list wframe :=
  flat_map (fun a => match a with AEmit fr => [fr] | ACloseEmit fr => [fr] | _ => [] end) l.
Definition readout (l : list act) : list N :=
  flat_map (fun a => match a with ARead _ d => d | _ => [] end) l.
Lemma emitted_app a b : emitted (a ++ b) = emitted a ++ emitted b.
Proof. unfold emitted. apply flat_map_app. Qed.
Lemma readout_app a b : readout (a ++ b) = readout a ++ readout b.
Proof. unfold readout. apply flat_map_app. Qed.

(* frames of this direction among a list of events *)
Definition ev_frames (evs : list ev) : list wframe :=
  flat_map (fun e => match e with
                     | EFrame x _ fr => if side_eqb x s && keep fr then [fr] else []
                     | _ => [] end) evs.
Lemma ev_frames_app a b : ev_frames (a ++ b) = ev_frames a ++ ev_frames b.
Proof. unfold ev_frames. apply flat_map_app. Qed.

End View.
