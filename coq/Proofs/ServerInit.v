(* Facts about Model/ServerInit.v: which UIDs the State built by InitState serves without consulting the user
   database, who is admin, which methods are served - and their composition with the dispatch theorems (C07). *)
From Coq Require Import NArith ZArith List Bool Arith Lia.
From Cloak Require Import Model.Hello Model.Dispatch Proofs.Hello Proofs.Dispatch.
From Cloak Require Import Model.ServerInit Proofs.ListFacts.
Import ListNotations.
Local Open Scope N_scope.

Definition uid16 (u : list N) : Prop := length u = 16%nat.
(* a well-formed configuration: every configured UID has exactly 16 bytes (ck-server -uid generates such) *)
Definition wf_uids (rc : raw_config) : Prop :=
  Forall uid16 (rc_bypass rc) /\ (rc_admin rc = [] \/ uid16 (rc_admin rc)).

Lemma copy_arr_16 : forall arr uid, uid16 uid -> copy_arr arr uid = uid.
Proof. intros arr uid H. apply firstn_app_exact, H. Qed.

Lemma bypass_loop_wf : forall l arr keys, Forall uid16 l ->
  forall uid, In uid (snd (bypass_loop arr l keys)) <-> In uid l \/ In uid keys.
Proof.
  induction l as [|u t IH]; intros arr keys H uid; cbn [bypass_loop snd In].
  - tauto.
  - inversion H as [|? ? Hu Ht]; subst. rewrite (copy_arr_16 arr u Hu). rewrite (IH u (u :: keys) Ht uid).
    cbn [In]. split; intros [A|A]; auto; destruct A; auto.
Qed.

(* THE configuration theorem: the bypass set of the State is exactly the configured BypassUID entries plus the
   configured AdminUID *)
Lemma bypass_keys_exact : forall bypass admin, Forall uid16 bypass -> (admin = [] \/ uid16 admin) ->
  forall uid, In uid (bypass_keys bypass admin) <-> In uid bypass \/ (admin <> [] /\ uid = admin).
Proof.
  intros bypass admin Hb Ha uid. unfold bypass_keys.
  pose proof (bypass_loop_wf bypass (repeat 0 16) [] Hb uid) as L.
  destruct (bypass_loop (repeat 0 16) bypass []) as [arr keys] eqn:E. cbn [snd In] in L.
  destruct admin as [|a0 at'].
  - cbn. rewrite L. split; [intros [A|[]]; auto | intros [A|[A _]]; [auto | congruence]].
  - destruct Ha as [Ha|Ha]; [discriminate|]. cbn [length Nat.eqb].
    rewrite (copy_arr_16 arr (a0 :: at') Ha). cbn [In]. rewrite L. split.
    + intros [A|[A|[]]]; [right; split; [discriminate | congruence] | left; exact A].
    + intros [A|[_ A]]; [right; left; exact A | left; congruence].
Qed.

Lemma bypass_keys_none : bypass_keys [] [] = [].
Proof. reflexivity. Qed.

(* the quirk behind the premise: a short entry inherits the tail of the entry before it (first entry: zeros) *)
Example short_entry_inherits :
  bypass_keys [repeat 0xaa 16; [1; 2; 3]] [] = [[1; 2; 3] ++ repeat 0xaa 13; repeat 0xaa 16] /\
  bypass_keys [[1; 2; 3]] [] = [[1; 2; 3] ++ repeat 0 13] /\
  bypass_keys [repeat 0xaa 16] [7; 7] = [[7; 7] ++ repeat 0xaa 14; repeat 0xaa 16] /\
  bypass_keys [repeat 0xaa 16 ++ [1; 2]] [] = [repeat 0xaa 16].
Proof. repeat split; reflexivity. Qed.

Section InitFacts.
  Variable resolve_ip : list N -> bool.
  Variable resolve_addr : list N -> list N -> bool.
  Variable db_open : list N -> option (list (list N * urec)).
  Notation init := (init_state resolve_ip resolve_addr db_open).

  Lemma init_ok_fields : forall rc io, init rc = IOk io ->
    st_staticPv (io_state io) = copy_into 32 (rc_privateKey rc) /\
    st_adminUID (io_state io) = rc_admin rc /\
    st_bypass (io_state io) = bypass_keys (rc_bypass rc) (rc_admin rc) /\
    parse_book resolve_addr (rc_book rc) = Some (st_proxyBook (io_state io)) /\
    st_usedRandom (io_state io) = [] /\ st_active (io_state io) = [] /\
    (io_local_manager io = false -> st_db (io_state io) = []) /\
    (io_local_manager io = false <-> rc_admin rc = [] \/ rc_dbPath rc = []) /\
    rc_privateKey rc <> [] /\ rc_cnc rc = false.
  Proof.
    intros rc io H. unfold init_state in H.
    destruct (rc_cnc rc) eqn:Ec; [discriminate|].
    set (void := (length (rc_admin rc) =? 0)%nat || (length (rc_dbPath rc) =? 0)%nat) in *.
    destruct (if void then Some [] else db_open (rc_dbPath rc)) as [db|] eqn:Ed; [|discriminate].
    destruct (redir_host_port (rc_redir rc)) as [host port].
    destruct (negb (resolve_ip host)); [discriminate|].
    destruct (parse_book resolve_addr (rc_book rc)) as [book|] eqn:Eb; [|discriminate].
    destruct (length (rc_privateKey rc) =? 0)%nat eqn:Ek; [discriminate|].
    inversion H; subst io; clear H. cbn.
    assert (void = true <-> rc_admin rc = [] \/ rc_dbPath rc = []) as Hv.
    { subst void. rewrite orb_true_iff, !Nat.eqb_eq, !length_zero_iff_nil. tauto. }
    repeat split; auto.
    - intros Hn. apply negb_false_iff in Hn. rewrite Hn in Ed. congruence.
    - intros Hn. apply negb_false_iff in Hn. apply Hv. exact Hn.
    - intros Hn. apply negb_false_iff. apply Hv. exact Hn.
    - intros E. rewrite E in Ek. discriminate.
  Qed.

  (* which UIDs the State serves without consulting the database *)
  Theorem init_bypass_exact : forall rc io, wf_uids rc -> init rc = IOk io ->
    forall uid, In uid (st_bypass (io_state io)) <->
                In uid (rc_bypass rc) \/ (rc_admin rc <> [] /\ uid = rc_admin rc).
  Proof.
    intros rc io [Hb Ha] H uid. destruct (init_ok_fields rc io H) as (_ & _ & E & _). rewrite E.
    apply bypass_keys_exact; assumption.
  Qed.

  Theorem init_nothing_configured : forall rc io, init rc = IOk io ->
    rc_bypass rc = [] -> rc_admin rc = [] -> st_bypass (io_state io) = [] /\ st_db (io_state io) = [].
  Proof.
    intros rc io H Eb Ea. destruct (init_ok_fields rc io H) as (_ & _ & E & _ & _ & _ & Hdb & Hm & _).
    rewrite E, Eb, Ea. split; [reflexivity|]. apply Hdb. apply Hm. left. exact Ea.
  Qed.

  (* GetUser / GetBypassUser on the fresh State: nobody is active yet *)
  Theorem init_get_user : forall rc io, wf_uids rc -> init rc = IOk io ->
    forall uid now, (exists a, get_user (io_state io) uid now = Some a) <->
      (In uid (rc_bypass rc) \/ (rc_admin rc <> [] /\ uid = rc_admin rc) \/ db_authorises (io_state io) uid now).
  Proof.
    intros rc io Hwf H uid now. rewrite get_user_some_iff.
    destruct (init_ok_fields rc io H) as (_ & _ & _ & _ & _ & Eact & _).
    rewrite (init_bypass_exact rc io Hwf H uid). unfold user_active. rewrite Eact. cbn [find_active find].
    split.
    - intros [(a & A)|[A|A]]; [discriminate | tauto | tauto].
    - intros [A|[A|A]]; tauto.
  Qed.

  (* without a database (no AdminUID or no DatabasePath: Voidmanager) the configured UIDs are ALL that is served *)
  Theorem init_void_get_user : forall rc io, wf_uids rc -> init rc = IOk io -> io_local_manager io = false ->
    forall uid now, (exists a, get_user (io_state io) uid now = Some a) <->
      (In uid (rc_bypass rc) \/ (rc_admin rc <> [] /\ uid = rc_admin rc)).
  Proof.
    intros rc io Hwf H Hv uid now. rewrite (init_get_user rc io Hwf H).
    destruct (init_ok_fields rc io H) as (_ & _ & _ & _ & _ & _ & Hdb & _).
    unfold db_authorises. rewrite (Hdb Hv). cbn [db_get].
    split; [intros [A|[A|(u & E & _)]]; [tauto | tauto | discriminate] | tauto].
  Qed.

  (* the admin gate on that State *)
  Theorem init_admin_ok : forall rc io, init rc = IOk io -> forall ci,
    admin_ok (io_state io) ci <-> rc_admin rc <> [] /\ ci_uid ci = rc_admin rc /\ ci_sid ci = 0.
  Proof.
    intros rc io H ci. destruct (init_ok_fields rc io H) as (_ & E & _). unfold admin_ok. rewrite E. tauto.
  Qed.

  (* the proxy methods served: lower-cased names of the entries whose network is tcp or udp *)
  Lemma parse_book_keys : forall l ks, parse_book resolve_addr l = Some ks ->
    forall m, In m ks <-> exists e, In e l /\ book_entry resolve_addr e = Some (Some m).
  Proof.
    induction l as [|e t IH]; intros ks H m; cbn [parse_book] in H.
    - inversion H. split; [intros [] | intros (e & [] & _)].
    - destruct (book_entry resolve_addr e) as [[k|]|] eqn:Ee; [| |discriminate];
        destruct (parse_book resolve_addr t) as [ks'|] eqn:Et; try discriminate; inversion H; subst ks; clear H.
      + cbn [In]. rewrite (IH ks' eq_refl m). split.
        * intros [A|(e' & I & B)]; [exists e; split; [left; reflexivity | congruence] | exists e'; split; [right; exact I | exact B]].
        * intros (e' & [I|I] & B); [left; congruence | right; exists e'; auto].
      + rewrite (IH ks' eq_refl m). split.
        * intros (e' & I & B). exists e'. split; [right; exact I | exact B].
        * intros (e' & [I|I] & B); [congruence | exists e'; auto].
  Qed.

  Theorem init_book : forall rc io, init rc = IOk io -> forall m,
    In m (st_proxyBook (io_state io)) <->
    exists name network address, In (name, [network; address]) (rc_book rc) /\ m = lower name /\
      (lower network = tcp \/ lower network = udp).
  Proof.
    intros rc io H m. destruct (init_ok_fields rc io H) as (_ & _ & _ & Eb & _).
    rewrite (parse_book_keys _ _ Eb m). split.
    - intros ([name pair] & I & B). unfold book_entry in B. cbn [fst snd] in B.
      destruct pair as [|network [|address [|? ?]]]; try discriminate.
      destruct (bytes_eqb (lower network) tcp || bytes_eqb (lower network) udp) eqn:En; [|discriminate].
      destruct (resolve_addr (lower network) address); [|discriminate]. inversion B; subst m.
      exists name, network, address. split; [exact I | split; [reflexivity|]].
      apply orb_prop in En as [En|En]; apply bytes_eqb_iff in En; auto.
    - intros (name & network & address & I & -> & Hn).
      assert (parse_book resolve_addr (rc_book rc) <> None) as Hne by congruence.
      exists (name, [network; address]). split; [exact I|].
      (* the entry did not make parseProxyBook fail, hence its address resolved *)
      assert (forall l ks e, parse_book resolve_addr l = Some ks -> In e l -> book_entry resolve_addr e <> None) as NoErr.
      { induction l as [|e0 t IHl]; intros ks e Hp Hin; [destruct Hin|]. cbn [parse_book] in Hp.
        destruct (book_entry resolve_addr e0) as [[k|]|] eqn:Ee0; [| |discriminate];
          destruct (parse_book resolve_addr t) as [ks'|] eqn:Et; try discriminate;
          (destruct Hin as [<-|Hin]; [congruence | eapply IHl; eauto]). }
      pose proof (NoErr _ _ _ Eb I) as Hok. unfold book_entry in *. cbn [fst snd] in *.
      assert (bytes_eqb (lower network) tcp || bytes_eqb (lower network) udp = true) as En.
      { destruct Hn as [-> | ->]; cbn; reflexivity. }
      rewrite En in *. destruct (resolve_addr (lower network) address); [reflexivity | congruence].
  Qed.
  Section Composed.
  Variable dh : list N -> list N -> option (list N).
  Variable gcm_open : list N -> list N -> list N -> list N -> option (list N).
  Hypothesis gcm_open_len : forall k n ct aad pt, gcm_open k n ct aad = Some pt -> (length pt + 16 = length ct)%nat.

  (* soundness: a proxy session on the State InitState built is granted only to a valid credential whose UID is a
     configured BypassUID entry, the configured AdminUID, or authorised by the database *)
  Theorem config_proxy_sound : forall rc io, wf_uids rc -> init rc = IOk io ->
    forall p now uid sid m enc un,
    decide dh gcm_open p (io_state io) now = ProxySession uid sid m enc un ->
    exists ci, valid_cloak dh gcm_open p (io_state io) now ci /\ uid = ci_uid ci /\
      (In uid (rc_bypass rc) \/ (rc_admin rc <> [] /\ uid = rc_admin rc) \/ db_authorises (io_state io) uid now) /\
      (exists name network address, In (name, [network; address]) (rc_book rc) /\ m = lower name /\
         (lower network = tcp \/ lower network = udp)).
  Proof.
    intros rc io Hwf H p now uid sid m enc un D.
    apply (decide_proxy_iff dh gcm_open gcm_open_len) in D.
    destruct D as (ci & V & _ & _ & Hm & (a & Gu & _) & -> & _ & -> & _).
    exists ci. split; [exact V | split; [reflexivity | split]].
    - apply (init_get_user rc io Hwf H). eauto.
    - apply (init_book rc io H). exact Hm.
  Qed.

  (* completeness for the configured UIDs: a valid credential of a configured bypass UID (or of the admin with a
     non-zero session id) naming a served method IS served *)
  Theorem config_bypass_served : forall rc io, wf_uids rc -> init rc = IOk io ->
    forall p now ci,
    valid_cloak dh gcm_open p (io_state io) now ci -> known_enc (ci_enc ci) = true ->
    ~ (rc_admin rc <> [] /\ ci_uid ci = rc_admin rc /\ ci_sid ci = 0) ->
    In (ci_method ci) (st_proxyBook (io_state io)) ->
    (In (ci_uid ci) (rc_bypass rc) \/ (rc_admin rc <> [] /\ ci_uid ci = rc_admin rc)) ->
    decide dh gcm_open p (io_state io) now =
      ProxySession (ci_uid ci) (ci_sid ci) (ci_method ci) (ci_enc ci) (ci_unordered ci).
  Proof.
    intros rc io Hwf H p now ci V K Hna Hm Hcfg.
    apply (decide_proxy_iff dh gcm_open gcm_open_len). exists ci.
    split; [exact V | split; [exact K | split]].
    - intros Ha. apply Hna. apply (init_admin_ok rc io H). exact Ha.
    - split; [exact Hm | split; [|repeat split; reflexivity]].
      destruct (init_ok_fields rc io H) as (_ & _ & _ & _ & _ & Eact & _).
      assert (In (ci_uid ci) (st_bypass (io_state io))) as Hin
        by (apply (init_bypass_exact rc io Hwf H); exact Hcfg).
      unfold get_user, find_active. rewrite Eact. cbn [find].
      apply mem_bytes_iff in Hin. rewrite Hin. eexists. split; [reflexivity|].
      unfold get_session. cbn [a_sessions existsb a_bypass]. reflexivity.
  Qed.

  (* and nothing else: with no database behind it (Voidmanager), a valid credential whose UID is neither a configured
     bypass entry nor the configured admin is ordinary web traffic - in particular the all-zero UID on a server
     without an AdminUID *)
  Theorem config_unconfigured_is_web : forall rc io, wf_uids rc -> init rc = IOk io -> io_local_manager io = false ->
    forall p now ci,
    auth_first_packet dh gcm_open p (io_state io) now = DOk ci ->
    ~ In (ci_uid ci) (rc_bypass rc) -> ~ (rc_admin rc <> [] /\ ci_uid ci = rc_admin rc) ->
    exists why, decide dh gcm_open p (io_state io) now = Redirect why.
  Proof.
    intros rc io Hwf H Hv p now ci A Hnb Hna. unfold decide. rewrite A.
    destruct (negb (known_enc (ci_enc ci))); [eauto|].
    destruct (is_admin (io_state io) ci) eqn:Ad.
    { apply is_admin_iff in Ad. apply (init_admin_ok rc io H) in Ad.
      exfalso. apply Hna. tauto. }
    destruct (negb (mem_bytes (ci_method ci) (st_proxyBook (io_state io)))); [eauto|].
    destruct (get_user (io_state io) (ci_uid ci) now) as [a|] eqn:Gu; [|eauto].
    exfalso.
    assert (exists a, get_user (io_state io) (ci_uid ci) now = Some a) as Hex by eauto.
    apply (init_void_get_user rc io Hwf H Hv) in Hex. tauto.
  Qed.
  End Composed.
End InitFacts.

(* the premises are satisfiable: a bypass-only configuration without AdminUID *)
Definition ex_rc : raw_config :=
  mkRaw [([83; 115], [[84; 67; 80]; [49; 58; 49]])] [repeat 0xaa 16] [49; 46; 49; 46; 49; 46; 49] (repeat 3 32) [] [] 0 false.
Example ex_init :
  exists io, init_state (fun _ => true) (fun _ _ => true) (fun _ => None) ex_rc = IOk io /\
    st_bypass (io_state io) = [repeat 0xaa 16] /\ st_proxyBook (io_state io) = [[115; 115]] /\
    io_local_manager io = false /\ wf_uids ex_rc.
Proof.
  eexists. split; [reflexivity|]. repeat split; try reflexivity.
  - repeat constructor.
  - left; reflexivity.
Qed.
