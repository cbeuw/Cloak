(* C11 - Forged, foreign or modified frames are rejected; garbage never breaks a session.
   Only the property theorems, each a line or two from a lemma of Proofs/.

   The property as stated (every modification of an honest message is dropped) is FALSE of the
   code: the AEAD nonce is header[:12], so header bytes 12 (closing) and 13 (extra length) are
   not authenticated (finding F3).  Hence: C11_full is a Definition, C11_refuted refutes it
   with the real ciphers, C11_partial states exactly what does hold. *)
From Coq Require Import NArith ZArith List.
From Cloak Require Import Gen.Consts Model.Crypto.CBytes Model.Codec Proofs.Codec Proofs.CodecAuth.
Import ListNotations.
Local Open Scope Z_scope.

(* Arbitrary received bytes never crash deobfuscate, under any method (plain included): every
   slice expression is in range for EVERY byte string. *)
Theorem C11_no_panic : forall (m : method) (key msg : list N), decode m key msg <> Panic.
Proof. intros. apply decode_with_no_panic, cipher_ok_nonce, payload_cipher_ok. Qed.
Print Assumptions C11_no_panic.

(* The property as stated: every single-bit modification of an honest message under an AEAD
   method is rejected. *)
Definition C11_full : Prop :=
  forall (m : method) (key : list N) (f : frame) (padLen : N) (rnd msg : list N) (i : nat) (b : N),
    m <> Plain ->
    (f_sid f < 2 ^ 32)%N -> (f_seq f < 2 ^ 64)%N -> (f_closing f < 256)%N ->
    Z.of_N padLen <= mux_maxExtraLen - method_tag_len m ->
    encode m key f padLen rnd = Some msg ->
    (i < length msg)%nat -> (b < 8)%N ->
    forall f', decode m key (flip_bit msg i b) <> Ok f'.

Theorem C11_refuted : ~ C11_full.
Proof. exact full_refuted. Qed.
Print Assumptions C11_refuted.

(* The witnesses (real ciphers, evaluated by vm_compute): for each AEAD method, flipping bit 0
   of byte 12 of an honest message of stream 0xdeadbeef, seq 4, closing 1 is accepted with the
   same stream, sequence number and payload but closing = 0 ... *)
Theorem C11_witness_closing : forall m, m <> Plain ->
  decode m ex_key (flip_bit (honest m) 12 0) =
  Ok (mkFrame (f_sid ex_frame) (f_seq ex_frame) 0 (f_payload ex_frame)).
Proof. exact closing_flip_accepted. Qed.
Print Assumptions C11_witness_closing.

(* ... and flips in byte 13 change the payload length (longer: padding and tag bytes are
   handed to the application; shorter: the payload is truncated) *)
Theorem C11_witness_extralen :
  decode ChaCha20Poly1305 ex_key (flip_bit (honest ChaCha20Poly1305) 13 0) =
    Ok (mkFrame (f_sid ex_frame) (f_seq ex_frame) 1 (f_payload ex_frame ++ [200%N])) /\
  decode ChaCha20Poly1305 ex_key (flip_bit (honest ChaCha20Poly1305) 13 2) =
    Ok (mkFrame (f_sid ex_frame) (f_seq ex_frame) 1 [104%N]) /\
  (exists p, decode AES128GCM ex_key (flip_bit (honest AES128GCM) 13 4) =
    Ok (mkFrame (f_sid ex_frame) (f_seq ex_frame) 1 p) /\ length p = 21%nat /\
    firstn 8 p = f_payload ex_frame ++ [200; 201; 202]%N).
Proof. exact extralen_flip_accepted. Qed.
Print Assumptions C11_witness_extralen.

(* What does hold.  For an AEAD with a 12-byte nonce such that (1) whatever opens under a nonce
   is literally a Seal output under that nonce and (2) Seal outputs determine nonce and
   plaintext.  (1) holds of each of the three ciphers of payload_cipher (an encrypt-then-MAC
   scheme is a function: Proofs/AEAD.v aead_open_inv, Proofs/Crypto.v gcm_open_inv); (2) is
   the idealisation.  Both are hypotheses, not axioms, and satisfiable together, see
   C11_partial_not_vacuous.  Then: if an honest message has only its header bytes altered and is
   still accepted, then stream id and sequence number are the honest ones, the first 12 bytes
   are unaltered, and the payload is a prefix of payload ++ padding ++ tag - i.e. exactly
   header bytes 12 and 13 escape authentication. *)
Theorem C11_partial :
  forall (a : aead),
  aead_ok a -> a_nonce_size a = 12%nat ->
  (forall n c p, length n = 12%nat -> a_open a n c = Some p -> c = a_seal a n p) ->
  (forall n n' p p', length n = 12%nat -> length n' = 12%nat ->
     a_seal a n p = a_seal a n' p' -> n = n' /\ p = p') ->
  forall (key : list N) (f : frame) (padLen : N) (rnd msg msg' : list N) (f' : frame),
  (f_sid f < 2 ^ 32)%N -> (f_seq f < 2 ^ 64)%N ->
  encode_with (Some a) key f padLen rnd = Some msg ->
  length msg' = length msg -> skipn 14 msg' = skipn 14 msg ->
  decode_with (Some a) key msg' = Ok f' ->
  f_sid f' = f_sid f /\ f_seq f' = f_seq f /\ firstn 12 msg' = firstn 12 msg /\
  exists k, f_payload f' =
    firstn k (f_payload f ++ firstn (N.to_nat padLen) rnd ++
              skipn (length (f_payload f) + N.to_nat padLen) (skipn 14 msg)).
Proof. exact header_tamper. Qed.
Print Assumptions C11_partial.

(* More generally, under hypothesis (1): whatever is accepted carries a body that was sealed
   under the nonce spelling the decoded stream id and sequence number (forged, foreign-key or
   body-modified messages are rejected to the extent the AEAD is unforgeable). *)
Theorem C11_accepted_is_sealed :
  forall (a : aead),
  a_nonce_size a = 12%nat ->
  (forall n c p, length n = 12%nat -> a_open a n c = Some p -> c = a_seal a n p) ->
  forall (key msg : list N) (f' : frame),
  decode_with (Some a) key msg = Ok f' ->
  exists n pt, length n = 12%nat /\ skipn 14 msg = a_seal a n pt /\
    f_sid f' = be_num (firstn 4 n) /\ f_seq f' = be_num (skipn 4 n).
Proof.
  intros a Hn Hideal key msg f' Hd.
  destruct (accepted_inv a Hn Hideal key msg f' Hd) as (Hl & pt & k & Hs & Hsid & Hseq & _). eauto 6.
Qed.
Print Assumptions C11_accepted_is_sealed.

Theorem C11_partial_not_vacuous :
  aead_ok toy_aead /\ a_nonce_size toy_aead = 12%nat /\
  (forall n c p, length n = 12%nat -> a_open toy_aead n c = Some p -> c = a_seal toy_aead n p) /\
  (forall n n' p p', length n = 12%nat -> length n' = 12%nat ->
     a_seal toy_aead n p = a_seal toy_aead n' p' -> n = n' /\ p = p').
Proof. exact ideal_section_inhabited. Qed.
Print Assumptions C11_partial_not_vacuous.

(* A rejected message has no effect: for every method, every session state, every handler of
   accepted frames and every sequence of received byte strings, the receive loop ends in the
   same state as if the rejected strings had never arrived (so later valid frames are processed
   as usual), and it never crashes in the decoder. *)
Theorem C11_drop_no_effect :
  forall (S O : Type) (handle : S -> frame -> S * O) (m : method) (key : list N)
         (datas : list (list N)) (st : S),
  recv_all handle (payload_cipher m key) key st datas =
    recv_all handle (payload_cipher m key) key st (filter (accepted (payload_cipher m key) key) datas) /\
  recv_all handle (payload_cipher m key) key st datas <> None.
Proof. intros. apply drop_no_effect, cipher_ok_nonce, payload_cipher_ok. Qed.
Print Assumptions C11_drop_no_effect.
