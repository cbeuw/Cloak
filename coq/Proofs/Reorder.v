(* Proofs about Model/Reorder.v : reassembly is independent of arrival order (C02). *)
From Coq Require Import NArith List Lia Bool Sorting.Permutation.
From Coq Require Import ZifyN ZifyBool.
From Cloak Require Import Model.Reorder.
Import ListNotations.
Local Open Scope N_scope.

Fixpoint range (b : N) (n : nat) : list N :=
  match n with O => [] | S n => b :: range (b + 1) n end.

Lemma range_app b n m : range b (n + m) = range b n ++ range (b + N.of_nat n) m.
Proof. revert b; induction n as [|n IH]; intros b; cbn [range Nat.add app].
  - f_equal; lia.
  - f_equal. rewrite IH. f_equal. f_equal. lia. Qed.
Lemma range_in b n x : In x (range b n) <-> b <= x < b + N.of_nat n.
Proof. revert b; induction n as [|n IH]; intros b; cbn [range In]; [lia|]. rewrite IH. lia. Qed.
Lemma range_nodup b n : NoDup (range b n).
Proof. revert b. induction n as [|n IH]; intros b; cbn; constructor.
  - rewrite range_in. lia.
  - apply IH. Qed.
Lemma range_length b n : length (range b n) = n.
Proof. revert b; induction n as [|n IH]; intros b; cbn; [reflexivity|]. now rewrite IH. Qed.

Lemma succ64_small x : x + 1 < two64 -> succ64 x = x + 1.
Proof. intros H. unfold succ64. apply N.mod_small. exact H. Qed.

(* the shortcut for an in-order frame with nothing parked gives what the general path computes *)
Lemma rb_write_general b f : seq f <? next b = false ->
  rb_write b f = let '(h, nx, p, c) := drain (pclosed b) (insert f (heap b)) (next b) (pipe b) in
                 (mkB nx h p (pclosed b), c, false).
Proof.
  intros Hlt. unfold rb_write. rewrite Hlt.
  destruct (is_nil (heap b) && (seq f =? next b)) eqn:E; [|reflexivity].
  apply andb_prop in E as [Hn He]. destruct b as [nx h p c0]. cbn in *. destruct h; [|discriminate].
  cbn. rewrite He. destruct (closing f); reflexivity.
Qed.

Section Frames.
(* The frames of one stream: frame number i is [F i]; exactly the frame numbered [cl]
   is a closing frame (take [cl] outside the delivered set for a stream that is never
   closed).  Payloads are arbitrary. *)
Variable F : N -> frame.
Variable cl : N.

Definition P (i : N) : list N := payload (F i).
Definition cat (b : N) (n : nat) : list N := flat_map P (range b n).

Lemma cat_snoc b n : cat b (S n) = cat b n ++ P (b + N.of_nat n).
Proof. unfold cat. replace (S n) with (n + 1)%nat by lia.
  rewrite range_app, flat_map_app. cbn. now rewrite app_nil_r. Qed.
Lemma cat_app b n m : cat b (n + m) = cat b n ++ cat (b + N.of_nat n) m.
Proof. unfold cat. now rewrite range_app, flat_map_app. Qed.

(* strictly increasing frames of this stream, all at or above a bound, none at 2^64-1 *)
Fixpoint sorted_above (lo : N) (h : list frame) : Prop :=
  match h with
  | [] => True
  | f :: t => lo <= seq f /\ seq f + 1 < two64 /\ f = F (seq f) /\ sorted_above (seq f + 1) t
  end.

Lemma sorted_above_weaken lo lo' h : lo' <= lo -> sorted_above lo h -> sorted_above lo' h.
Proof. destruct h; cbn; intuition lia. Qed.

Lemma sorted_above_in lo h x : sorted_above lo h -> In x h -> lo <= seq x.
Proof. revert lo; induction h as [|y h IH]; intros lo Hs Hin; [destruct Hin|].
  cbn in Hs. destruct Hs as (H1 & _ & _ & H2). destruct Hin as [<-|Hin]; [exact H1|].
  specialize (IH _ H2 Hin). lia. Qed.

Lemma insert_sorted lo f h : sorted_above lo h -> lo <= seq f -> seq f + 1 < two64 ->
  f = F (seq f) -> (forall g, In g h -> seq g <> seq f) -> sorted_above lo (insert f h).
Proof.
  revert lo; induction h as [|g t IH]; intros lo Hs Hlo Hb Hf Hne; cbn [insert].
  - cbn; intuition lia.
  - cbn in Hs. destruct Hs as (Hg & Hgb & Hgd & Ht).
    destruct (seq f <=? seq g) eqn:E.
    + cbn. repeat split; try assumption; try lia.
      assert (seq g <> seq f) by (apply Hne; now left). lia.
    + cbn. repeat split; try assumption. apply IH; try assumption; try lia.
      intros g' Hg'. apply Hne. now right.
Qed.

Lemma insert_in f h g : In g (insert f h) <-> g = f \/ In g h.
Proof. induction h as [|x t IH]; cbn [insert]. { cbn; intuition. }
  destruct (seq f <=? seq x); cbn [In]; [intuition|]. rewrite IH. intuition. Qed.

(* The invariant of a run in which no closing has been reported yet.
   b = first sequence number of the stream, A = sequence numbers that have arrived. *)
Definition Inv (b : N) (A : list N) (st : rbuf) (out : list N) : Prop :=
  exists k : nat,
    next st = b + N.of_nat k /\
    pclosed st = false /\
    sorted_above (next st + 1) (heap st) /\
    out ++ pipe st = cat b k /\
    (forall i, b <= i < next st -> i <> cl) /\
    (forall i, In i A <-> (b <= i < next st) \/ exists g, In g (heap st) /\ seq g = i).

Lemma Inv_next_not_arrived b A st out : Inv b A st out -> ~ In (next st) A.
Proof.
  intros (k & Hn & Hpc & Hs & Ho & Hncl & HA) Hin.
  apply HA in Hin as [Hlt|(g & Hg & Hsg)]; [lia|].
  pose proof (sorted_above_in _ _ _ Hs Hg). lia.
Qed.

Lemma Inv_next_le_cl b A st out : b <= cl -> Inv b A st out -> b <= next st <= cl.
Proof.
  intros Hb (k & Hn & Hpc & Hs & Ho & Hncl & HA). split; [lia|].
  destruct (N.leb_spec (next st) cl) as [H|H]; [exact H|].
  exfalso. apply (Hncl cl); lia.
Qed.

Lemma read_pres b A st out k :
  Inv b A st out ->
  match rb_read st k with
  | (st', RdData d) => Inv b A st' (out ++ d)
  | (st', _) => Inv b A st' out
  end.
Proof.
  intros (j & Hn & Hpc & Hs & Ho & Hncl & HA). unfold rb_read.
  destruct (pipe st) as [|x p] eqn:Hp.
  - rewrite Hpc. exists j. rewrite Hp. repeat split; try assumption; apply HA.
  - exists j. cbn [next heap pipe pclosed]. repeat split; try assumption; try apply HA.
    rewrite <- app_assoc, firstn_skipn. exact Ho.
Qed.

Lemma Inv_init b : Inv b [] (rb_init b) [].
Proof.
  exists 0%nat. cbn. repeat split; try lia; try tauto.
  intros [?|(g & [] & _)]. lia.
Qed.

Hypothesis F_seq : forall i, seq (F i) = i.
Hypothesis F_closing : forall i, closing (F i) = (i =? cl).

(* The popping loop on a sorted heap: it pops the maximal run of consecutive data frames starting at nx
   and hands them over; it stops at a gap (c = false) or exactly at the closing frame (c = true), which
   it pops too. *)
Lemma drain_spec h : forall nx p, sorted_above nx h ->
  exists k h' c, drain false h nx p = (h', nx + N.of_nat k, p ++ cat nx k, c)
    /\ h = map F (range nx k) ++ (if c then [F cl] else []) ++ h'
    /\ (forall i, In i (range nx k) -> i <> cl)
    /\ sorted_above (nx + N.of_nat k + 1) h'
    /\ (c = true -> nx + N.of_nat k = cl).
Proof.
  induction h as [|f t IH]; intros nx p Hs.
  - exists 0%nat, [], false. cbn. rewrite app_nil_r, N.add_0_r. repeat split; try tauto; discriminate.
  - cbn in Hs. destruct Hs as (Hlo & Hb & Hd & Ht). cbn [drain].
    destruct (seq f =? nx) eqn:E.
    + assert (Hnx : seq f = nx) by lia. subst nx.
      destruct (closing f) eqn:Hc; rewrite Hd, F_closing in Hc.
      * (* the closing frame is next in line *)
        assert (Hcl : seq f = cl) by lia.
        exists 0%nat, t, true. cbn [range cat flat_map map app N.of_nat]. rewrite app_nil_r, N.add_0_r.
        split; [reflexivity|]. split; [now rewrite <- Hcl, <- Hd|]. split; [intros i []|].
        split; [eapply sorted_above_weaken; [|exact Ht]; lia|intros _; exact Hcl].
      * rewrite (succ64_small _ Hb). unfold pipe_write.
        destruct (IH (seq f + 1) (p ++ payload f) Ht) as (k & h' & c & Hdr & Hh & Hnc & Hs' & Hcc).
        exists (S k), h', c. rewrite Hdr. cbn [range map app].
        replace (seq f + N.of_nat (S k)) with (seq f + 1 + N.of_nat k) by lia.
        split; [|split; [|split; [|split; assumption]]].
        -- rewrite <- app_assoc. unfold cat. cbn [range flat_map]. unfold P at 2. now rewrite <- Hd.
        -- rewrite <- Hd. now f_equal.
        -- intros i [<-|Hi]; [lia|apply Hnc; exact Hi].
    + exists 0%nat, (f :: t), false. cbn [range cat flat_map map app N.of_nat]. rewrite app_nil_r, N.add_0_r.
      split; [reflexivity|]. split; [reflexivity|]. split; [intros i []|].
      split; [cbn; repeat split; try assumption; lia|discriminate].
Qed.

Lemma write_pres b A st out i :
  Inv b A st out -> ~ In i A -> b <= i -> i + 1 < two64 ->
  exists st' c, rb_write st (F i) = (st', c, false) /\
    (c = false -> Inv b (i :: A) st' out) /\
    (c = true -> (forall j, b <= j <= cl -> In j (i :: A)) /\
                 exists k, cl = b + N.of_nat k /\ out ++ pipe st' = cat b k).
Proof.
  intros (k & Hn & Hpc & Hs & Ho & Hncl & HA) Hni Hbi Hi64.
  assert (Hge : next st <= i).
  { destruct (N.ltb_spec i (next st)) as [Hlt|]; [|assumption]. exfalso. apply Hni, HA. left; lia. }
  rewrite rb_write_general by (rewrite F_seq; lia).
  assert (Hsi : sorted_above (next st) (insert (F i) (heap st))).
  { apply insert_sorted; rewrite ?F_seq; try reflexivity; try lia.
    - eapply sorted_above_weaken; [|exact Hs]. lia.
    - intros g Hg Heq. apply Hni, HA. right. exists g; split; [assumption|]. exact Heq. }
  rewrite Hpc.
  destruct (drain_spec _ (next st) (pipe st) Hsi) as (j & h' & c & Hdr & Hh & Hnc & Hs' & Hcc).
  rewrite Hdr. eexists; exists c; split; [reflexivity|].
  (* who has arrived, read off the heap with frame i in it, before and after the popping *)
  assert (Hmem : forall x, In x (i :: A) <->
            b <= x < next st + N.of_nat j \/ (c = true /\ x = cl) \/ exists g, In g h' /\ seq g = x).
  { intros x. transitivity (b <= x < next st \/ exists g, In g (insert (F i) (heap st)) /\ seq g = x).
    - cbn [In]. rewrite HA. split.
      + intros [<-|[Hx|(g & Hg & Hsg)]]; [right; exists (F i); split; [apply insert_in; now left|apply F_seq]|now left|].
        right. exists g. split; [apply insert_in; now right|exact Hsg].
      + intros [Hx|(g & Hg & Hsg)]; [right; now left|].
        apply insert_in in Hg as [->|Hg]; [left; now rewrite F_seq in Hsg|right; right; eauto].
    - rewrite Hh. split.
      + intros [Hx|(g & Hg & Hsg)]; [left; lia|]. apply in_app_or in Hg as [Hg|Hg].
        * apply in_map_iff in Hg as (n & <- & Hn'). rewrite F_seq in Hsg. subst n. apply range_in in Hn'. left; lia.
        * apply in_app_or in Hg as [Hg|Hg]; [|right; right; eauto]. destruct c; [|destruct Hg].
          destruct Hg as [<-|[]]. rewrite F_seq in Hsg. right; left; auto.
      + intros [Hx|[[-> ->]|(g & Hg & Hsg)]].
        * destruct (N.ltb_spec x (next st)); [left; lia|right]. exists (F x).
          split; [apply in_or_app; left; apply in_map, range_in; lia|apply F_seq].
        * right. exists (F cl). split; [apply in_or_app; right; now left|apply F_seq].
        * right. exists g. split; [apply in_or_app; right; apply in_or_app; now right|exact Hsg]. }
  split.
  + intros ->. exists (k + j)%nat. cbn [next heap pipe pclosed]. repeat split.
    * lia.
    * exact Hs'.
    * rewrite app_assoc, Ho, cat_app. now rewrite Hn.
    * intros x Hx. destruct (N.ltb_spec x (next st)) as [Hlt|Hgeq]; [apply Hncl; lia|]. apply Hnc, range_in. lia.
    * intros Hx. apply Hmem in Hx as [H1|[[H2 _]|H3]]; [left; exact H1|discriminate|right; exact H3].
    * intros [Hx|Hx]; apply Hmem; [left; exact Hx|right; right; exact Hx].
  + intros ->. specialize (Hcc eq_refl). split.
    * intros x Hx. apply Hmem. destruct (N.eq_dec x cl) as [->|Hne]; [right; left; auto|left; lia].
    * exists (k + j)%nat. split; [lia|]. cbn [pipe]. rewrite app_assoc, Ho, cat_app. now rewrite Hn.
Qed.

Definition no_close (es : list ev) : Prop := forall e, In e es -> e <> Cl.

(* Every run over distinct frames of the stream, in any order and with reads anywhere:
   no error; closing is reported iff every frame up to and including the closing frame
   has arrived, and at that moment exactly the data below it has been handed over;
   otherwise the state satisfies the invariant. *)
Lemma run_general b : forall es l A st out,
  no_close es ->
  writes es = map F l -> NoDup l ->
  (forall i, In i l -> ~ In i A /\ b <= i /\ i + 1 < two64) ->
  Inv b A st out ->
  exists st' out' c, run es st out = (st', out', c, false) /\
    (c = false -> Inv b (rev l ++ A) st' out') /\
    (c = true -> (forall j, b <= j <= cl -> In j (l ++ A)) /\
                 exists k, cl = b + N.of_nat k /\ out' ++ pipe st' = cat b k).
Proof.
  induction es as [|e es IH]; intros l A st out Hnc Hw Hnd Hl HI.
  - destruct l; [|discriminate]. exists st, out, false. split; [reflexivity|].
    split; [intros _; exact HI|discriminate].
  - assert (Hnc' : no_close es) by (intros x Hx; apply Hnc; now right).
    destruct e as [f|k|].
    + destruct l as [|i l]; [discriminate|]. cbn [writes flat_map app map] in Hw.
      injection Hw as Hf Hw. subst f.
      destruct (Hl i (or_introl eq_refl)) as (Hni & Hbi & Hi64).
      destruct (write_pres b A st out i HI Hni Hbi Hi64) as (st1 & c & Hwr & HcF & HcT).
      cbn [run]. rewrite Hwr.
      destruct c.
      * exists st1, out, true. split; [reflexivity|]. split; [discriminate|]. intros _.
        destruct (HcT eq_refl) as (Hall & Hk). split; [|exact Hk].
        intros j Hj. specialize (Hall j Hj). cbn [app In] in *.
        destruct Hall as [->|Hall]; [now left|]. right. apply in_or_app. now right.
      * inversion Hnd as [|? ? Hnotin Hnd']; subst.
        destruct (IH l (i :: A) st1 out Hnc' Hw Hnd') as (st' & out' & c & Hrun & HF & HT);
          [|exact (HcF eq_refl)|].
        -- intros j Hj. destruct (Hl j (or_intror Hj)) as (H1 & H2 & H3). repeat split; try assumption.
           intros [<-|HjA]; contradiction.
        -- exists st', out', c. split; [exact Hrun|]. split.
           ++ intros Hc. cbn [rev]. rewrite <- app_assoc. exact (HF Hc).
           ++ intros Hc. destruct (HT Hc) as (Hall & Hk). split; [|exact Hk].
              intros j Hj. specialize (Hall j Hj). apply in_app_or in Hall. cbn [app In].
              destruct Hall as [H1|[H1|H1]].
              ** right. apply in_or_app. now left.
              ** now left.
              ** right. apply in_or_app. now right.
    + cbn [run]. pose proof (read_pres b A st out k HI) as HI1.
      destruct (rb_read st k) as [st1 [d| |]]; apply (IH l A); assumption.
    + exfalso. apply (Hnc Cl); [now left|reflexivity].
Qed.

End Frames.

(* C02, first sentence: n data frames numbered b..b+n-1, each delivered exactly once in
   any order, reads of any size in between: no write reports an error or a close, and
   what was read plus what is still in the pipe is the concatenation in sequence order. *)
Theorem reassembly (pl : N -> list N) (b : N) (n : nat) (es : list ev) (l : list N) :
  b + N.of_nat n < two64 ->
  no_close es ->
  writes es = map (fun i => mkF i false (pl i)) l ->
  Permutation l (range b n) ->
  exists st out, run es (rb_init b) [] = (st, out, false, false)
    /\ out ++ pipe st = flat_map pl (range b n) /\ heap st = [] /\ next st = b + N.of_nat n.
Proof.
  intros Hb Hnc Hw Hp.
  set (cl := b + N.of_nat n).
  set (F := fun i => mkF i (i =? cl) (pl i)).
  assert (F_seq : forall i, seq (F i) = i) by reflexivity.
  assert (F_closing : forall i, closing (F i) = (i =? cl)) by reflexivity.
  assert (Hrange : forall i, In i l <-> b <= i < cl).
  { intros i. unfold cl. rewrite <- range_in. split; apply Permutation_in; [exact Hp|symmetry; exact Hp]. }
  assert (Hw' : writes es = map F l).
  { rewrite Hw. apply map_ext_in. intros i Hi. unfold F. apply Hrange in Hi.
    replace (i =? cl) with false by lia. reflexivity. }
  assert (Hnd : NoDup l).
  { eapply Permutation_NoDup; [symmetry; exact Hp|]. apply range_nodup. }
  assert (Hl : forall i, In i l -> ~ In i [] /\ b <= i /\ i + 1 < two64).
  { intros i Hi. split; [intros []|]. apply Hrange in Hi. unfold cl in Hi. lia. }
  destruct (run_general F cl F_seq F_closing b es l [] _ _ Hnc Hw' Hnd Hl (Inv_init F cl b))
    as (st & out & c & Hrun & HF & HT).
  destruct c.
  - exfalso. destruct (HT eq_refl) as (Hall & _). specialize (Hall cl). rewrite app_nil_r in Hall.
    assert (In cl l) by (apply Hall; lia). apply Hrange in H. lia.
  - specialize (HF eq_refl). pose proof (Inv_next_not_arrived F cl b _ _ _ HF) as Hna.
    destruct HF as (k & Hn & Hpc & Hs & Ho & Hncl & HA).
    exists st, out. split; [exact Hrun|].
    rewrite app_nil_r in HA, Hna.
    assert (HinA : forall i, In i (rev l) <-> b <= i < cl) by (intros i; rewrite <- in_rev; apply Hrange).
    assert (Hnext : next st = cl).
    { destruct (N.lt_trichotomy (next st) cl) as [Hlt|[Heq|Hgt]]; [|exact Heq|].
      - exfalso. apply Hna. apply HinA. lia.
      - exfalso. assert (In cl (rev l)) by (apply HA; left; lia). apply HinA in H. lia. }
    assert (Hheap : heap st = []).
    { destruct (heap st) as [|g t] eqn:Hh; [reflexivity|]. exfalso.
      cbn in Hs. destruct Hs as (Hg & _).
      assert (In (seq g) (rev l)) by (apply HA; right; exists g; split; [now left|reflexivity]).
      apply HinA in H. lia. }
    repeat split; try assumption.
    rewrite Ho. unfold cat, P, F. cbn [payload]. f_equal. f_equal. unfold cl in Hnext. lia.
Qed.

(* C02, second sentence: frames b..b+c-1 carry data, frame b+c is the closing frame;
   further (later-numbered) frames may or may not be around.  In any arrival order and
   with reads anywhere, the run reports "to be closed" iff every frame up to the closing
   one has arrived - hence (apply this to every prefix of the event list) exactly at the
   write that completes that set, never earlier - never reports an error, and when it
   does report it, what was read plus what is in the pipe is exactly the data below it. *)
Theorem close_in_order (pl : N -> list N) (b : N) (c : nat) (es : list ev) (l : list N) :
  let cl := b + N.of_nat c in
  no_close es ->
  writes es = map (fun i => mkF i (i =? cl) (pl i)) l ->
  NoDup l -> (forall i, In i l -> b <= i /\ i + 1 < two64) ->
  exists st out r, run es (rb_init b) [] = (st, out, r, false)
    /\ (r = true <-> (forall j, b <= j <= cl -> In j l))
    /\ (r = true -> out ++ pipe st = flat_map pl (range b c)).
Proof.
  intros cl Hnc Hw Hnd Hl.
  set (F := fun i => mkF i (i =? cl) (pl i)).
  assert (F_seq : forall i, seq (F i) = i) by reflexivity.
  assert (F_closing : forall i, closing (F i) = (i =? cl)) by reflexivity.
  assert (Hbcl : b <= cl) by (unfold cl; lia).
  assert (Hl' : forall i, In i l -> ~ In i [] /\ b <= i /\ i + 1 < two64).
  { intros i Hi. split; [intros []|apply Hl; exact Hi]. }
  destruct (run_general F cl F_seq F_closing b es l [] _ _ Hnc Hw Hnd Hl' (Inv_init F cl b))
    as (st & out & r & Hrun & HF & HT).
  exists st, out, r. split; [exact Hrun|]. split; [split|].
  - intros Hr. destruct (HT Hr) as (Hall & _). intros j Hj. specialize (Hall j Hj).
    now rewrite app_nil_r in Hall.
  - intros Hall. destruct r; [reflexivity|]. exfalso.
    specialize (HF eq_refl).
    pose proof (Inv_next_not_arrived F cl b _ _ _ HF) as Hna.
    pose proof (Inv_next_le_cl F cl b _ _ _ Hbcl HF) as Hle.
    apply Hna. rewrite app_nil_r, <- in_rev. apply Hall. exact Hle.
  - intros Hr. destruct (HT Hr) as (_ & k & Hk & Ho). rewrite Ho.
    assert (k = c) by (unfold cl in Hk; lia). subst k. reflexivity.
Qed.

(* The boundary of the theorem: numbering that runs across 2^64 is not supported by the
   implementation's comparison "seq < nextRecvSeq" (frame 0 arriving before frame 2^64-1
   is rejected).  Recorded as the edge of the statement (the property numbers 0..n-1). *)
Example wrap_guard :
  snd (rb_write (rb_init (two64 - 1)) (mkF 0 false [1])) = true.
Proof. vm_compute. reflexivity. Qed.

(* non-vacuity: a concrete out-of-order run meets the hypotheses and gives the data *)
Example reassembly_example :
  run [Wr (mkF 2 false [3]); Rd 1; Wr (mkF 0 false [1]); Rd 5; Wr (mkF 1 false [2; 2])]
      (rb_init 0) []
  = (mkB 3 [] [2; 2; 3] false, [1], false, false).
Proof. vm_compute. reflexivity. Qed.
