(* C20 - Client configuration is honoured exactly as documented, in both input syntaxes.
   Only the property theorems, each closed from the lemmas of Proofs/Config.v.  Model: Model/Config.v
   (internal/client/state.go: ssvToJson, ProcessRawConfig; README.md client options as [spec]). *)
From Coq Require Import String.
From Coq Require Import ZArith NArith List Bool.
From Cloak Require Import Gen.Consts Model.Config Proofs.Config.
Import ListNotations.
Local Open Scope Z_scope.

(* Every raw configuration is processed exactly as the documented table says: either both
   reject it or both yield the same LocalConnConfig / RemoteConnConfig / AuthInfo (defaults,
   NumConn <= 0 => one connection per stream, KeepAlive N > 0 => N seconds else disabled,
   StreamTimeout, BrowserSig, Transport, CDN options, AlternativeNames, method names).
   [secs_ok]: second counts that fit a time.Duration (about +-292 years). *)
Theorem C20_process_meets_spec :
  forall r, secs_ok (KeepAlive r) -> secs_ok (StreamTimeout r) -> to_option (process r) = spec r.
Proof. exact process_meets_spec. Qed.
Print Assumptions C20_process_meets_spec.

Example C20_process_meets_spec_hyps :
  secs_ok (KeepAlive ex_raw) /\ secs_ok (StreamTimeout ex_raw) /\ doc_complete ex_raw = true
  /\ exists x, process ex_raw = ROk x /\ r_keepalive (snd (fst x)) = 30 * second_ns
     /\ l_timeout (fst (fst x)) = 300 * second_ns /\ r_singleplex (snd (fst x)) = false
     /\ t_wsurl (r_transport (snd (fst x))) = bytes_of "ws://1.2.3.4:443/".
Proof. exact ex_raw_ok. Qed.
(* edge of the statement (not a finding): beyond [secs_ok] the int64 multiplication wraps *)
Example C20_secs_boundary : secs 9223372037 < 0.
Proof. exact secs_wraps. Qed.

(* The keep-alive period that reaches net.Dialer: N seconds for every positive N ... *)
Theorem C20_keepalive :
  forall r x, 0 < KeepAlive r -> secs_ok (KeepAlive r) -> process r = ROk x ->
  r_keepalive (snd (fst x)) = KeepAlive r * second_ns.
Proof. intros r x Hpos Hok H. rewrite (process_gen_keepalive true r x Hpos H). exact (secs_small _ Hok). Qed.
Print Assumptions C20_keepalive.
(* ... whereas the line as it was before commit b378e52 (F9) yields 0 for EVERY positive N. *)
Theorem C20_refuted_prefix_keepalive :
  forall r x, 0 < KeepAlive r -> process_gen false r = ROk x -> r_keepalive (snd (fst x)) = 0.
Proof. exact (process_gen_keepalive false). Qed.
Print Assumptions C20_refuted_prefix_keepalive.

(* Incomplete or invalid configurations are rejected with an error - exactly those the
   documentation calls incomplete -, each missing mandatory item on its own is enough, and
   processing has no other outcome than a configuration or an error (no panic outcome exists:
   ProcessRawConfig indexes nothing; ecdh.Unmarshal answers false for a key that is not 32 bytes). *)
Theorem C20_rejects_incomplete :
  (forall r, (exists x, process r = ROk x) \/ (exists e, process r = RErr e)) /\
  (forall r, (exists e, process r = RErr e) <-> doc_complete r = false) /\
  (forall r,
    (ServerName r = [] -> process r = RErr (EEmpty FServerName)) /\
    (ServerName r <> [] -> ProxyMethod r = [] -> process r = RErr (EEmpty FServerName)) /\
    (UID r = [] -> exists e, process r = RErr e) /\
    (length (PublicKey r) <> 32%nat -> exists e, process r = RErr e) /\
    (doc_encryption (EncryptionMethod r) = None -> exists e, process r = RErr e) /\
    (RemoteHost r = [] -> exists e, process r = RErr e) /\
    (RemotePort r = [] -> exists e, process r = RErr e) /\
    (LocalHost r = [] -> exists e, process r = RErr e) /\
    (LocalPort r = [] -> exists e, process r = RErr e)).
Proof. exact (conj process_total (conj rejects_iff rejects_each)). Qed.
Print Assumptions C20_rejects_incomplete.

(* For every configuration in the stated domain - string values and names without semicolon,
   double quote, backslash and control characters, alternative names without comma (empty names
   allowed, the list not empty), literal options among NumConn/StreamTimeout/KeepAlive/UDP - the
   option string key=value;... with an equals sign inside values written backslash-equals is
   parsed into exactly the members of the JSON rendering; and every string body the code puts
   between quotes is then a plain JSON string literal. *)
Theorem C20_ssv_equiv :
  forall c, forallb ok_option c = true ->
  ssv_tokens (render_ssv c) = json_members c /\
  ssv_to_json (render_ssv c) = json_text (json_members c) /\
  (forall o, In o c ->
     match snd o with
     | VStr s => json_plain_body s = true
     | VLit _ => True
     | VList l => forall n, In n l -> json_plain_body n = true
     end /\ json_plain_body (fst o) = true).
Proof. intros c H. rewrite (ssv_to_json_text (render_ssv c)), (ssv_equiv c H). do 2 (split; [reflexivity|]).
  intros o Ho. apply guard_gives_plain_bodies. rewrite forallb_forall in H. now apply H. Qed.
Print Assumptions C20_ssv_equiv.

Example C20_ssv_equiv_hyps :
  forallb ok_option ex_b64 = true
  /\ render_ssv ex_b64 = bytes_of "UID=iGAO85zysIyR4c09CyZSLQ\=\=;NumConn=4;AlternativeNames=a.com,,b.com;"
  /\ ssv_to_json (render_ssv ex_b64)
     = bytes_of "{""UID"":""iGAO85zysIyR4c09CyZSLQ=="",""NumConn"":4,""AlternativeNames"":[""a.com"","""",""b.com""]}".
Proof. exact ex_guard. Qed.

(* The domain is the boundary: a semicolon, a trailing backslash, two backslashes, a comma inside
   a name and the empty name list each change the member list (the unescaping runs before the
   split on semicolons, so an escaped semicolon cannot be expressed); a double quote and control
   characters survive to the member list but the text between the quotes is no plain JSON string
   literal any more. *)
Theorem C20_ssv_guard_is_boundary :
  (ssv_tokens (render_ssv cx_semicolon) <> json_members cx_semicolon /\
   ssv_tokens (render_ssv cx_backslash) <> json_members cx_backslash /\
   ssv_tokens (render_ssv cx_two_backslashes) <> json_members cx_two_backslashes /\
   ssv_tokens (render_ssv cx_comma) <> json_members cx_comma /\
   ssv_tokens (render_ssv cx_empty_list) <> json_members cx_empty_list) /\
  ((ssv_tokens (render_ssv cx_quote) = json_members cx_quote /\ json_plain_body [97; 34; 98]%N = false) /\
   (ssv_tokens (render_ssv cx_control) = json_members cx_control /\ json_plain_body [97; 10; 98]%N = false)).
Proof. exact (conj cx_breaks cx_text_level). Qed.
Print Assumptions C20_ssv_guard_is_boundary.
