(* C16 - Usage is charged exactly once and exhausted or expired users are cut off.
   Only the property theorems, each proved in a line or two from the lemmas of Proofs/PanelC16.v, PanelRefute.v
   and PanelSplit.v, the concrete run by evaluation.  Model: Model/Panel.v.
   Directions: pairs are (up, down) = (rx, tx): dsel true = bytes received from the client
   (AddRx) = UpUsage, subtracted from UpCredit; dsel false = bytes sent (AddTx) = DownUsage.
   Ghost ledgers of the model: g_cnt u = everything the valves of user u's records counted
   (traffic and the notice frames of Session.Close); g_chg u = usage UploadStatus subtracted
   from u's bucket; g_nou u = usage reported while u had no bucket (deleted user);
   g_adm u = sum of the changes the admin API made to u's credit. *)
From Coq Require Import ZArith NArith List Bool.
From Cloak Require Import Model.Panel.
From Cloak Require Import Proofs.LockOrder Proofs.PanelLocks Proofs.PanelWF Proofs.PanelOwn Proofs.PanelC16 Proofs.PanelRefute.
From Cloak Require Model.PanelSplit Proofs.PanelSplit.
Import ListNotations.
Local Open Scope Z_scope.

(* the atomicity the model assumes for the usage queue, tied to the source (see C17.v) *)
Theorem C16_queue_guarded_by_queueM : ltac:(let T := type of queue_guarded in exact T).
Proof. exact queue_guarded. Qed.
Print Assumptions C16_queue_guarded_by_queueM.

(* Conservation.  In every reachable state of every interleaving of traffic, uploads, closures
   (incl. a user's last), terminations and admin changes, for every user and direction:
     charged + reported-for-a-deleted-user + queued + valve residue of ALL records of the user
     + swapped out by a terminating thread + taken by a commit that has not uploaded yet
     = counted.
   The valve residue of records that activeUsers no longer holds is what is lost at termination
   (bytes counted between a record's final Nullify and the closing of its sessions, and whatever
   an orphan record of C17's finding F5 counts): nothing else is ever lost, nothing is counted
   twice. *)
Theorem C16_conservation : forall c d nw s b u, reachable c d nw s ->
  dsel b (g_chg s u) + dsel b (g_nou s u) + dsel b (qsum u (queue s))
  + vsum b s u + lsum b s u + isum b s u = dsel b (g_cnt s u).
Proof. exact conservation. Qed.
Print Assumptions C16_conservation.

(* the stored credit is the initial credit, plus what the admin changed, minus what was charged
   (int64 arithmetic as UploadStatus performs it: equality modulo 2^64) *)
Theorem C16_stored : forall c d0 nw s b u, reachable c d0 nw s ->
  eqm (dsel b (db_credit (db s) u)) (dsel b (db_credit d0 u) + dsel b (g_adm s u) - dsel b (g_chg s u)).
Proof. exact stored_credit. Qed.
Print Assumptions C16_stored.

(* never more than once, never from another user (notice frames are never negative) *)
Theorem C16_at_most_once : forall c, (forall k, 0 <= close_tx c k) ->
  forall d nw s b u, reachable c d nw s ->
  dsel b (g_chg s u) + dsel b (g_nou s u) <= dsel b (g_cnt s u).
Proof. exact at_most_once. Qed.
Print Assumptions C16_at_most_once.

Theorem C16_per_user : forall c, (forall k, 0 <= close_tx c k) ->
  forall d nw s b u, reachable c d nw s ->
  dsel b (g_cnt s u) = 0 -> dsel b (g_chg s u) = 0 /\ dsel b (g_nou s u) = 0.
Proof. exact per_user. Qed.
Print Assumptions C16_per_user.

(* exactly once while the user stays active: once traffic has stopped (no thread in flight),
   nothing is queued for the user and the valves of the user's records are empty - which the
   collection step establishes for every record activeUsers holds (C16_update_collects); for a
   record it does NOT hold this is C17's ownership - everything counted has been reported; with
   C16_stored: stored = initial + admin changes - counted for a user that was never deleted. *)
Theorem C16_exact_when_collected : forall c d nw s b u, reachable c d nw s -> quiescent s ->
  qsum u (queue s) = pzero ->
  (forall r, (r < nrec s)%nat -> r_uid (recs s r) = u -> r_valve (recs s r) = pzero) ->
  dsel b (g_chg s u) + dsel b (g_nou s u) = dsel b (g_cnt s u).
Proof. exact exact_when_collected. Qed.
Print Assumptions C16_exact_when_collected.

Theorem C16_update_collects : forall c s t ch s' cm r,
  thr s t = U2 cm -> tstep c s t ch = Some s' ->
  (r < nrec s)%nat -> table s (r_uid (recs s r)) = Some r -> r_bypass (recs s r) = false ->
  r_valve (recs s' r) = pzero.
Proof. exact update_zeroes_active. Qed.
Print Assumptions C16_update_collects.

(* a concrete run: 5 bytes up and 7 down on a session of user 1 (credits 1000/1000), one upload
   round: stored credit 995/993, queue empty, valve empty *)
Example C16_exact_applies :
  match run cfg_now (init db1 10) ([Spawn (OpDispatch 1 1)] ++ runs 0 4 ++ [Traffic 0 (5, 7); Spawn OpRound] ++ runs 1 12) with
  | Some s => match db s 1%N with
              | Some r => (fst (d_credit r) =? 995) && (snd (d_credit r) =? 993) && is_done (thr s 1)
                          && (fst (g_cnt s 1%N) =? 5) && (fst (g_chg s 1%N) =? 5)
              | None => false
              end
  | None => false
  end = true.
Proof. vm_compute. reflexivity. Qed.

(* Cut-off.  UploadStatus answers TERMINATE for a reported user exactly when the user is deleted,
   or a credit is at or below zero after the deduction, or the user has expired; only reported
   users are ever terminated; commitUpdate enters TerminateActiveUser for the active record of
   every such answer; and the closeAllSessions step of TerminateActiveUser closes every session
   that record ever created (in every interleaving: a session created by a record is in its
   table while it is live).  These are four separate one-step facts; that a started operation runs
   to its end is not claimed here (C17_deadlock_free says only that some thread can always step). *)
Theorem C16_cutoff :
  (forall nw d chg nou u us,
     let '(_, rs, _, _) := upload nw d chg nou [(u, us)] in
     (In u rs <->
      match d u with
      | None => True
      | Some r => wrap64 (fst (d_credit r) - fst us) <= 0 \/ wrap64 (snd (d_credit r) - snd us) <= 0
                  \/ d_exp r < nw
      end))
  /\ (forall nw st d chg nou u,
        let '(_, rs, _, _) := upload nw d chg nou st in In u rs -> In u (map fst st))
  /\ (forall c s t ch s' u k r,
        thr s t = M10 u k -> table s u = Some r -> tstep c s t ch = Some s' ->
        thr s' t = term_enter c r k)
  /\ (forall c d nw s t ch s' r rest k k',
        reachable c d nw s -> thr s t = TC1 r rest k -> tstep c s t ch = Some s' ->
        (k' < nses s)%nat -> s_owner (sess s k') = r ->
        s_closed (sess s' k') = true /\ r_sess (recs s' r) = []).
Proof. exact (conj upload_verdict (conj upload_resp_sound (conj commit_acts_on_verdict terminate_closes_all))). Qed.
Print Assumptions C16_cutoff.

(* ---- commitUpdate overlapping itself, traffic and collection rounds (Model/PanelSplit.v) ----

   The hand model already has Manager.UploadStatus as a step of its own (M8), so C16_conservation
   covers every overlap of upload rounds with everything else.  What it rests on is WHERE the queue
   is emptied; the small model below makes that a parameter.  early = true (the code as it is:
   emptied in the critical section that reads it; generated obligation
   commitUpdate_drain_and_reset_one_step of Proofs/AtomPanel.v): for every label sequence
   - any number of commitUpdate activations, traffic and collection rounds in any interleaving - every
   byte the valve counted is in exactly one of valve / queue / taken by a commit that has not uploaded
   yet / charged. *)
Theorem C16_overlapping_rounds_conservation : forall thr ls s,
  Forall (fun p => p = PanelSplit.CIdle) thr -> PanelSplit.crun true (PanelSplit.c_init thr) ls = Some s ->
  PanelSplit.c_counted s
  = PanelSplit.c_valve s + PanelSplit.c_queue s + PanelSplit.inflight (PanelSplit.c_thr s) + PanelSplit.c_charged s.
Proof. exact PanelSplit.commit_early_conservation. Qed.
Print Assumptions C16_overlapping_rounds_conservation.

(* hence exactly once, when traffic has stopped, everything is collected and no upload is in flight *)
Theorem C16_overlapping_rounds_exactly_once : forall thr ls s,
  Forall (fun p => p = PanelSplit.CIdle) thr -> PanelSplit.crun true (PanelSplit.c_init thr) ls = Some s ->
  PanelSplit.c_quiet s = true -> PanelSplit.c_charged s = PanelSplit.c_counted s.
Proof. exact PanelSplit.commit_early_exactly_once. Qed.
Print Assumptions C16_overlapping_rounds_exactly_once.

(* early = false (emptied in a second critical section AFTER the upload: the seeded change C16_m2):
   usage collected while the upload is in flight is wiped (150 carried, 100 charged) ... *)
Theorem C16_late_reset_refuted_lost :
  exists s, PanelSplit.crun false (PanelSplit.c_init [PanelSplit.CIdle]) PanelSplit.late_lost = Some s
  /\ PanelSplit.c_quiet s = true /\ PanelSplit.c_counted s = 150 /\ PanelSplit.c_charged s = 100.
Proof. exact PanelSplit.commit_late_loses. Qed.
Print Assumptions C16_late_reset_refuted_lost.

(* ... and two overlapping rounds charge the same 100 bytes twice.  The overlapped scenarios of the
   correspondence (T0.100.0 Ru T1.50.0 U g2 R R  and  T0.100.0 Ru M g2 R R) are these two schedules
   on the real code. *)
Theorem C16_late_reset_refuted_twice :
  exists s, PanelSplit.crun false (PanelSplit.c_init [PanelSplit.CIdle; PanelSplit.CIdle]) PanelSplit.late_twice = Some s
  /\ PanelSplit.c_quiet s = true /\ PanelSplit.c_counted s = 100 /\ PanelSplit.c_charged s = 200.
Proof. exact PanelSplit.commit_late_charges_twice. Qed.
Print Assumptions C16_late_reset_refuted_twice.

(* the same two schedules with the code as it is (the hypotheses of the two theorems above are met) *)
Example C16_overlapping_rounds_inhabited :
  (exists s, PanelSplit.crun true (PanelSplit.c_init [PanelSplit.CIdle])
               [PanelSplit.CTraffic 100; PanelSplit.CCollect; PanelSplit.CRun 0; PanelSplit.CTraffic 50; PanelSplit.CCollect; PanelSplit.CRun 0] = Some s
             /\ PanelSplit.c_counted s = 150 /\ PanelSplit.c_charged s = 100 /\ PanelSplit.c_queue s = 50)
  /\ (exists s, PanelSplit.crun true (PanelSplit.c_init [PanelSplit.CIdle; PanelSplit.CIdle])
               [PanelSplit.CTraffic 100; PanelSplit.CCollect; PanelSplit.CRun 0; PanelSplit.CRun 1; PanelSplit.CRun 0; PanelSplit.CRun 1] = Some s
             /\ PanelSplit.c_quiet s = true /\ PanelSplit.c_counted s = 100 /\ PanelSplit.c_charged s = 100).
Proof. exact PanelSplit.commit_early_same_schedules. Qed.
