(* What a run on a healthy session carries from label to label (no connection fails, nobody closes
   the session, the inactivity timer ticks only while streams are open): the setting of C01
   "nothing is lost" and of C03's exactness and delivery theorems (Proofs/MuxExact.v, MuxLive.v). *)
From Coq Require Import NArith ZArith List Bool Lia Sorting.Permutation.
From Coq Require Import ZifyN ZifyBool.
From Cloak Require Import Model.Mux Proofs.MuxSafety
  Proofs.MuxView Proofs.MuxEffect Proofs.MuxData Proofs.MuxCalm Proofs.MuxCount Proofs.MuxUp Proofs.MuxCov.
Import ListNotations.
Local Open Scope N_scope.

Lemma busy_not_droppy y l : busy_at y l -> droppy l = false.
Proof. destruct l; cbn; intros H; try reflexivity; contradiction. Qed.

Section Healthy.
Variable k : nat.
Definition sound (y : sys) : Prop := WF y /\ CIs y /\ Healthy k y.
Definition busy_fresh (y : sys) (ls : list (label * list N)) : Prop := fresh_run y ls /\ busy_run k y ls.

(* the freshness premise exists under two names (MuxCount: fresh_open, fresh_opens; MuxData: fresh_at, fresh_run) *)
Lemma fresh_at_open y l : fresh_at y l = fresh_open y l.
Proof. reflexivity. Qed.
Lemma fresh_run_opens y ls : fresh_run y ls = fresh_opens y ls.
Proof. reflexivity. Qed.

Lemma busy_fresh_next y l ch t : busy_fresh y ((l, ch) :: t) -> busy_fresh (fst (step y l ch)) t.
Proof. intros [[_ Hf] (_ & _ & Hb)]. split; assumption. Qed.
Lemma sound_step y l ch t y' evs :
  busy_fresh y ((l, ch) :: t) -> step y l ch = (y', evs) -> sound y -> sound y'.
Proof.
  intros [[Hf _] (Hb & Hv & _)] Hs (Hwf & Hci & Hh). rewrite fresh_at_open in Hf.
  split; [eapply step_WF; eauto|split; [eapply step_CIs; eauto|eapply busy_step; eauto]].
Qed.
Lemma init_sound unit toA toB : (1 <= k)%nat -> 1 <= unit -> sound (init k false unit toA toB).
Proof. intros Hk Hu. split; [apply init_WF|split; [apply init_CIs|now apply init_H]]. Qed.
End Healthy.

(* non-vacuity of the hypotheses of C01 "nothing is lost" (nothing_lost in Proofs/MuxLive.v) *)
Example nothing_lost_example :
  let ls := [(LOpen SA, []); (LWrite SA 1 [7; 8; 9], [0]); (LWrite SA 1 [10], [1]); (LDeliver SB 1, []); (LDeliver SB 0, []); (LRead SB 1 2, [])] in
  let y := reach 2 false 331 30000000000 45000000000 ls in
  inflight SA 1 y = [] /\ ron (rview SA 1 y) /\ all_data (run_frames SA 1 (outputs 2 false 331 30000000000 45000000000 ls)).
Proof. vm_compute. split; [reflexivity|split; [exact I|]]. intros fr [<-|[<-|[]]]; reflexivity. Qed.
