(* C12 - Faults tear a session down cleanly: nothing left blocked, new streams refused,
   connections closed, timer only when idle.  Statements over EVERY label sequence of the
   session-pair model (coq/Model/Mux.v): connection failures, FINs, stream and session
   closes by either side, timers, at arbitrary positions relative to frames in flight.
   Only property theorems here, each a line or two from lemmas of Proofs/. *)
From Coq Require Import NArith ZArith List Bool.
From Cloak Require Import Model.Reorder Model.Mux Proofs.MuxBase Proofs.MuxSafety Proofs.MuxCount Proofs.MuxCB.
Import ListNotations.
Local Open Scope N_scope.

(* After closeSession (whoever triggered it): every stream is closed and its pipe is closed
   (a read returns buffered bytes or the error, it never blocks), OpenStream is refused,
   writes are refused. *)
Theorem C12_teardown_complete :
  forall k sp u ta tb ls s,
  let y := reach k sp u ta tb ls in
  se_closed (sess y s) = true ->
  (forall sid st, lookup sid (se_objs (sess y s)) = Some st -> st_closed st = true /\ pclosed (st_rb st) = true) /\
  (forall sid n, try_read y s sid n <> None) /\
  open_stream y s = (y, [ERet R_BROKEN_SESSION 0 []]) /\
  (forall sid data ch, exists rc, stream_write y s sid data ch = (y, [ERet rc 0 []]) /\ rc <> R_OK).
Proof. intros k sp u ta tb ls s y. apply closed_session_torn_down, reach_WF. Qed.
Print Assumptions C12_teardown_complete.

(* In every reachable state (i.e. after every label has run to quiescence) an application
   call that is still blocked - a Read or an Accept - belongs to a session that is not closed:
   every blocked read and accept of a closed session has returned. *)
Theorem C12_nothing_left_blocked :
  forall k sp u ta tb ls,
  let y := reach k sp u ta tb ls in
  forall p, In p (sy_pend y) -> se_closed (sess y (pend_side p)) = false.
Proof.
  intros k sp u ta tb ls y. unfold y, reach. destruct (run _ ls) as [y' os] eqn:Er.
  eapply run_pending_open; [exact Er|apply init_WF|intros p []].
Qed.
Print Assumptions C12_nothing_left_blocked.

(* closeAll: once the switchboard is marked broken the session is closed and this side's end
   of every pooled connection has been closed. *)
Theorem C12_connections_closed :
  forall k sp u ta tb ls s,
  let y := reach k sp u ta tb ls in
  se_broken (sess y s) = true ->
  se_closed (sess y s) = true /\
  forall c cn, In c (se_pool (sess y s)) -> nthN (N.to_nat c) (sy_conns y) = Some cn -> conn_closed_end cn s = true.
Proof.
  intros k sp u ta tb ls s y Hb. pose proof (reach_WF k sp u ta tb ls) as Hwf.
  exact (conj (proj2 (proj2 (WF_sess _ s Hwf)) Hb) (WF_ends _ s Hwf Hb)).
Qed.
Print Assumptions C12_connections_closed.

(* A reset seen by both ends, at any moment, closes the session on every side whose end of that
   connection was still open. *)
Theorem C12_fault_closes_sessions :
  forall k sp u ta tb ls c ch cn,
  let y := reach k sp u ta tb ls in
  nthN (N.to_nat c) (sy_conns y) = Some cn -> c_failed cn = false ->
  forall s, conn_closed_end cn s = false -> se_closed (sess (fst (step y (LFail c) ch)) s) = true.
Proof. intros k sp u ta tb ls c ch cn y. apply fail_closes_both. Qed.
Print Assumptions C12_fault_closes_sessions.

(* The inactivity check closes a session only when its active-stream count is zero. *)
Theorem C12_timer_only_when_idle :
  forall k sp u ta tb ls d ch s,
  let y := reach k sp u ta tb ls in
  let y' := fst (step y (LTick d) ch) in
  se_closed (sess y s) = false -> se_closed (sess y' s) = true -> se_count (sess y s) = 0.
Proof. intros k sp u ta tb ls d ch s y y'. apply tick_closes_only_idle. Qed.
Print Assumptions C12_timer_only_when_idle.

(* the invariant behind all of the above holds in every reachable state *)
Theorem C12_wellformed_always :
  forall k sp u ta tb ls, WF (reach k sp u ta tb ls).
Proof. exact reach_WF. Qed.
Print Assumptions C12_wellformed_always.

(* At every quiescent moment of a live session the count of active streams equals the number of
   open streams (the counter is a uint32, hence "mod 2^32"), over every label sequence: faults,
   closes by either side, timers, any arrival order.  [fresh_opens]: the ids handed out by
   OpenStream are fresh (no 2^32 wrap-around of the id counter and no two openers of the same id). *)
Theorem C12_count_equals_open_streams :
  forall k sp u ta tb ls x,
  fresh_opens (init k sp u ta tb) ls ->
  let se := sess (reach k sp u ta tb ls) x in
  se_closed se = false -> se_count se = N.of_nat (List.length (live_streams se)) mod two32.
Proof. intros k sp u ta tb ls x Hf se Hop. exact (CI_count _ (reach_CIs _ _ _ _ _ _ Hf x) Hop). Qed.
Print Assumptions C12_count_equals_open_streams.

(* ... hence the inactivity check closes a session only while it has no open stream *)
Theorem C12_timer_closes_only_without_open_streams :
  forall k sp u ta tb ls d ch s,
  fresh_opens (init k sp u ta tb) ls ->
  let y := reach k sp u ta tb ls in
  let y' := fst (step y (LTick d) ch) in
  N.of_nat (List.length (live_streams (sess y s))) < two32 ->
  se_closed (sess y s) = false -> se_closed (sess y' s) = true -> live_streams (sess y s) = [].
Proof.
  intros k sp u ta tb ls d ch s Hf y y'. apply tick_closes_only_without_open_streams, (reach_CIs _ _ _ _ _ _ Hf).
Qed.
Print Assumptions C12_timer_closes_only_without_open_streams.

(* "All of the session's connections end up closed": in every reachable state (every quiescent
   moment, after any label sequence) a closed session - closed by a fault, by the peer's notice, by
   its own Close whether or not the notice could be sent, or by the timer - has run closeAll and
   its end of every connection of its pool is closed. *)
Theorem C12_closed_session_has_closed_its_connections :
  forall k sp u ta tb ls s,
  let y := reach k sp u ta tb ls in
  se_closed (sess y s) = true ->
  se_broken (sess y s) = true /\
  forall c cn, In c (se_pool (sess y s)) -> nthN (N.to_nat c) (sy_conns y) = Some cn -> conn_closed_end cn s = true.
Proof.
  intros k sp u ta tb ls s y Hcl. pose proof (reach_CBs k sp u ta tb ls s Hcl) as Hb.
  exact (conj Hb (WF_ends _ s (reach_WF _ _ _ _ _ _) Hb)).
Qed.
Print Assumptions C12_closed_session_has_closed_its_connections.
