(* Published test vectors for the Gallina ciphers, evaluated inside Coq (vm_compute), so that
   extraction is not the only path on which the primitives are exercised.  The same
   primitives are compared with Go's implementations on every run (C04 correspondence). *)
From Coq Require Import NArith List String Ascii.
From Cloak Require Import Model.Crypto.CBytes Model.Crypto.Salsa20 Model.Crypto.ChaCha20
  Model.Crypto.Poly1305 Model.Crypto.ChaChaPoly Model.Crypto.AES Model.Crypto.GCM.
Import ListNotations.
Local Open Scope N_scope.

Definition str (s : string) : list N := map N_of_ascii (list_ascii_of_string s).

(* Salsa20 specification (Bernstein), section 9: Salsa20_{k0,k1}(n) *)
Example salsa20_spec_expansion :
  salsa20_block (nrange 1 16 ++ nrange 201 16) (nrange 101 8) (le_num (nrange 109 8)) =
  [69;37;68;39;41;15;107;193;255;139;122;6;170;233;217;98;89;144;182;106;21;51;200;65;239;49;222;
   34;215;114;40;126;104;197;7;225;197;153;31;2;102;78;76;176;84;245;246;184;177;160;133;130;6;72;
   149;119;192;195;132;236;234;103;246;74].
Proof. vm_compute. reflexivity. Qed.

(* RFC 8439 section 2.3.2: ChaCha20 block function *)
Example chacha20_rfc8439_2_3_2 :
  be_num (chacha20_block (nrange 0 32) [0;0;0;9;0;0;0;0x4a;0;0;0;0] 1) =
  0x10f1e7e4d13b5915500fdd1fa32071c4c7d1f4c733c068030422aa9ac3d46c4ed2826446079faa0914c2d705d98b02a2b5129cd1de164eb9cbd083e8a2503c4e.
Proof. vm_compute. reflexivity. Qed.

(* RFC 8439 section 2.5.2: Poly1305 *)
Example poly1305_rfc8439_2_5_2 :
  be_num (poly1305 (be_bytes 32 0x85d6be7857556d337f4452fe42d506a80103808afb0db2fd4abff6af4149f51b)
                   (str "Cryptographic Forum Research Group")) =
  0xa8061dc1305136c6c22b8baf0c0127a9.
Proof. vm_compute. reflexivity. Qed.

(* RFC 8439 section 2.8.2: AEAD_CHACHA20_POLY1305 *)
Definition rfc_sunscreen : list N :=
  str "Ladies and Gentlemen of the class of '99: If I could offer you only one tip for the future, sunscreen would be it.".
Definition rfc_aead_key := nrange 0x80 32.
Definition rfc_aead_nonce : list N := [7;0;0;0;0x40;0x41;0x42;0x43;0x44;0x45;0x46;0x47].
Definition rfc_aead_aad : list N := [0x50;0x51;0x52;0x53;0xc0;0xc1;0xc2;0xc3;0xc4;0xc5;0xc6;0xc7].
Example chachapoly_rfc8439_2_8_2 :
  be_num (chachapoly_seal rfc_aead_key rfc_aead_nonce rfc_sunscreen rfc_aead_aad) =
  0xd31a8d34648e60db7b86afbc53ef7ec2a4aded51296e08fea9e2b5a736ee62d63dbea45e8ca9671282fafb69da92728b1a71de0a9e060b2905d6a5b67ecd3b3692ddbd7f2d778b8c9803aee328091b58fab324e4fad675945585808b4831d7bc3ff4def08e4b7a9de576d26586cec64b61161ae10b594f09e26a7e902ecbd0600691.
Proof. vm_compute. reflexivity. Qed.
Example chachapoly_rfc8439_open :
  chachapoly_open rfc_aead_key rfc_aead_nonce
    (chachapoly_seal rfc_aead_key rfc_aead_nonce rfc_sunscreen rfc_aead_aad) rfc_aead_aad = Some rfc_sunscreen.
Proof. vm_compute. reflexivity. Qed.
(* a sealed message with one more byte behind the tag is refused *)
Example chachapoly_bad_tag :
  chachapoly_open rfc_aead_key rfc_aead_nonce
    (chachapoly_seal rfc_aead_key rfc_aead_nonce [1;2;3] [] ++ [0]) [] = None.
Proof. vm_compute. reflexivity. Qed.

(* FIPS 197 appendix B / C: S-box entries, AES-128 and AES-256 example vectors *)
Example aes_sbox_entries : map sbox [0; 1; 0x53; 0xff] = [0x63; 0x7c; 0xed; 0x16].
Proof. vm_compute. reflexivity. Qed.
Definition fips_pt : list N := be_bytes 16 0x00112233445566778899aabbccddeeff.
Example aes128_fips197_c1 :
  be_num (aes_encrypt (nrange 0 16) fips_pt) = 0x69c4e0d86a7b0430d8cdb78070b4c55a.
Proof. vm_compute. reflexivity. Qed.
Example aes256_fips197_c3 :
  be_num (aes_encrypt (nrange 0 32) fips_pt) = 0x8ea2b7ca516745bfeafc49904b496089.
Proof. vm_compute. reflexivity. Qed.

(* McGrew-Viega GCM test cases 1, 2, 4 (AES-128) and 16 (AES-256); 4 and 16 carry the same AAD *)
Example gcm_tc1 : be_num (gcm_seal (zeros 16) (zeros 12) [] []) = 0x58e2fccefa7e3061367f1d57a4e7455a.
Proof. vm_compute. reflexivity. Qed.
Example gcm_tc2 :
  be_num (gcm_seal (zeros 16) (zeros 12) (zeros 16) []) =
  0x0388dace60b6a392f328c2b971b2fe78ab6e47d42cec13bdf53a67b21257bddf.
Proof. vm_compute. reflexivity. Qed.
Definition gcm_p4 : list N := be_bytes 60
  0xd9313225f88406e5a55909c5aff5269a86a7a9531534f7da2e4c303d8a318a721c3c0c95956809532fcf0e2449a6b525b16aedf5aa0de657ba637b39.
Definition gcm_a4 : list N := be_bytes 20 0xfeedfacedeadbeeffeedfacedeadbeefabaddad2.
Definition gcm_iv4 : list N := be_bytes 12 0xcafebabefacedbaddecaf888.
Example gcm_tc4 :
  be_num (gcm_seal (be_bytes 16 0xfeffe9928665731c6d6a8f9467308308) gcm_iv4 gcm_p4 gcm_a4) =
  0x42831ec2217774244b7221b784d0d49ce3aa212f2c02a4e035c17e2329aca12e21d514b25466931c7d8f6a5aac84aa051ba30b396a0aac973d58e0915bc94fbc3221a5db94fae95ae7121a47.
Proof. vm_compute. reflexivity. Qed.
Example gcm_tc16 :
  be_num (gcm_seal (be_bytes 32 0xfeffe9928665731c6d6a8f9467308308feffe9928665731c6d6a8f9467308308)
                   gcm_iv4 gcm_p4 gcm_a4) =
  0x522dc1f099567d07f47f37a32a84427d643a8cdcbfe5c0c97598a2bd2555d1aa8cb08e48590dbb3da7b08b1056828838c5f61e6393ba7a0abcc9f66276fc6ece0f4e1768cddf8853bb2d551b.
Proof. vm_compute. reflexivity. Qed.
Example gcm_tc4_open :
  gcm_open (be_bytes 16 0xfeffe9928665731c6d6a8f9467308308) gcm_iv4
    (gcm_seal (be_bytes 16 0xfeffe9928665731c6d6a8f9467308308) gcm_iv4 gcm_p4 gcm_a4) gcm_a4 = Some gcm_p4.
Proof. vm_compute. reflexivity. Qed.
