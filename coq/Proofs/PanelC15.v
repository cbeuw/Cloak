(* C15: connections join the right session; the per-record session cap is never exceeded; no
   session without credit.  Built on the structural invariant of Proofs/PanelWF.v. *)
From Coq Require Import ZArith NArith List Bool Lia Arith.
From Cloak Require Import Model.Panel Proofs.PanelLocks Proofs.PanelWF Proofs.PanelOwn.
Import ListNotations.

(* ------------------------------------------------------------------ the database function *)
Lemma check_live_ok : forall nw r, check_live nw r = AOk ->
  (0 < fst (d_credit r))%Z /\ (0 < snd (d_credit r))%Z /\ (nw <= d_exp r)%Z.
Proof.
  intros nw r. unfold check_live.
  destruct (Z.leb_spec (fst (d_credit r)) 0); [discriminate|].
  destruct (Z.leb_spec (snd (d_credit r)) 0); [discriminate|].
  destruct (Z.ltb_spec (d_exp r) nw); [discriminate|]. intros _. lia.
Qed.

Lemma authenticate_ok : forall nw d u, authenticate nw d u = AOk ->
  exists r, d u = Some r /\ (0 < fst (d_credit r))%Z /\ (0 < snd (d_credit r))%Z /\ (nw <= d_exp r)%Z.
Proof.
  intros nw d u. unfold authenticate. destruct (d u) as [r|]; [|discriminate].
  intros H. exists r. split; auto. now apply check_live_ok.
Qed.

Lemma authorise_ok : forall nw d u n, authorise nw d u n = AOk ->
  exists r, d u = Some r /\ (0 < fst (d_credit r))%Z /\ (0 < snd (d_credit r))%Z /\ (nw <= d_exp r)%Z
            /\ (n < cap_read r)%Z.
Proof.
  intros nw d u n. unfold authorise. destruct (d u) as [r|]; [|discriminate].
  destruct (check_live nw r) eqn:E; try discriminate.
  destruct (Z.leb_spec (cap_read r) n); [discriminate|]. intros _.
  exists r. split; auto. apply check_live_ok in E. tauto.
Qed.

Lemma cap_read_range : forall r, (0 <= cap_read r < two32)%Z.
Proof. intros. unfold cap_read. apply Z.mod_pos_bound. reflexivity. Qed.

(* exhausted, expired or unknown users are refused, whatever else holds *)
Lemma no_credit_refused : forall nw d u n,
  (match d u with
   | None => True
   | Some r => (fst (d_credit r) <= 0)%Z \/ (snd (d_credit r) <= 0)%Z \/ (d_exp r < nw)%Z
   end) ->
  authenticate nw d u <> AOk /\ authorise nw d u n <> AOk.
Proof.
  intros nw d u n H. split; intro E.
  - apply authenticate_ok in E. destruct E as [r [Hr ?]]. rewrite Hr in H. lia.
  - apply authorise_ok in E. destruct E as [r [Hr ?]]. rewrite Hr in H. lia.
Qed.

(* ------------------------------------------------------------------ what a step does to session tables *)
(* the session table of a record grows only by the admission step of GetSession, by one entry *)
Lemma step_sess_growth : forall c s l s' r,
  step c s l = Some s' ->
  length (r_sess (recs s' r)) <= length (r_sess (recs s r))
  \/ (exists sd, r_sess (recs s' r) = (sd, nses s) :: r_sess (recs s r))
     /\ (r_bypass (recs s r) = true \/
         authorise (now s) (db s) (r_uid (recs s r)) (Z.of_nat (length (r_sess (recs s r)))) = AOk).
Proof.
  intros c s l s' r H. destruct (step_cases _ _ _ _ H) as [(t&ch&_&_&Ht)|E].
  - destruct (tstep_data _ _ _ _ _ Ht) as (p'&d&D&E&_).
    destruct E as (_&_&Er&_). rewrite Er. destruct D; sim; auto.
    all: try (unfold upd; destruct (Nat.eqb_spec r r0) as [->|]; cbn; auto).
    + unfold upd. destruct (Nat.eqb r (nrec s)); cbn; auto. left. lia.
    + right. subst b. eauto.
    + left. subst l'. apply sdel_length.
    + left. lia.
    + pose proof (nullify_all_fields (nrec s) (table s) (recs s) (queue s) r) as F.
      rewrite Hnull in F. cbn in F. destruct F as (_&_&->&_). auto.
  - left. destruct E; cbv zeta; sim; auto.
    unfold upd. destruct (Nat.eqb_spec r (s_owner (sess s k))) as [->|]; apply Nat.le_refl.
Qed.

Lemma step_rec_frame : forall c s l s' r,
  step c s l = Some s' ->
  nrec s <= nrec s'
  /\ (r < nrec s -> r_uid (recs s' r) = r_uid (recs s r) /\ r_bypass (recs s' r) = r_bypass (recs s r))
  /\ (nrec s <= r -> r < nrec s' -> r_sess (recs s' r) = []).
Proof.
  intros c s l s' r H. destruct (step_cases _ _ _ _ H) as [(t&ch&_&_&Ht)|E].
  { destruct (tstep_data _ _ _ _ _ Ht) as (p'&d&D&E&_). destruct E as (_&En&Er&_).
    rewrite En, Er. eapply dstep_rec_frame; eauto. }
  destruct E; cbv zeta; sim; (split; [lia|]); (split; [auto | lia]).
  intros L. unfold upd. destruct (Nat.eqb_spec r (s_owner (sess s k))) as [->|]; auto.
Qed.

(* ------------------------------------------------------------------ C15_one_session_per_id, C15_no_sharing *)
Section Sessions.
Variables (c : cfg) (d : dbmap) (nw : Z) (s : state).
Hypothesis HR : reachable c d nw s.

(* the session table of a record is a partial injection  session id <-> session *)
Lemma sessions_injective : forall r sd1 k1 sd2 k2, r < nrec s ->
  In (sd1, k1) (r_sess (recs s r)) -> In (sd2, k2) (r_sess (recs s r)) ->
  (sd1 = sd2 <-> k1 = k2).
Proof.
  intros r sd1 k1 sd2 k2 Hr H1 H2. pose proof (reachable_WF _ _ _ _ HR) as W.
  split; intro E.
  - subst sd2. pose proof (in_slook _ _ _ (w_nodup _ _ W r Hr) H1) as E1.
    pose proof (in_slook _ _ _ (w_nodup _ _ W r Hr) H2) as E2. congruence.
  - subst k2. destruct (w_map _ _ W _ _ _ Hr H1) as (_&_&E1).
    destruct (w_map _ _ W _ _ _ Hr H2) as (_&_&E2). congruence.
Qed.

(* every admitted connection joined a session that was created by the record it resolved,
   under the session id it presented, for the UID it presented; and as long as that session is
   live it IS the session stored under (record, session id) *)
Lemma admission_joined : forall a, In a (g_log s) ->
  a_rec a < nrec s /\ a_ses a < nses s
  /\ s_owner (sess s (a_ses a)) = a_rec a /\ s_sid (sess s (a_ses a)) = a_sid a
  /\ r_uid (recs s (a_rec a)) = a_uid a
  /\ (s_closed (sess s (a_ses a)) = false ->
      slook (a_sid a) (r_sess (recs s (a_rec a))) = Some (a_ses a)).
Proof.
  intros a Ha. pose proof (reachable_WF _ _ _ _ HR) as W.
  destruct (w_log _ _ W a Ha) as (H1&H2&H3&H4&H5). repeat split; auto.
  intros Hc. pose proof (w_live _ _ W _ H2 Hc) as Hl. now rewrite H3, H4 in Hl.
Qed.

(* same record, same session id, both sessions live: the same session (hence the same key) *)
Lemma same_id_same_session : forall a1 a2, In a1 (g_log s) -> In a2 (g_log s) ->
  a_rec a1 = a_rec a2 -> a_sid a1 = a_sid a2 ->
  s_closed (sess s (a_ses a1)) = false -> s_closed (sess s (a_ses a2)) = false ->
  a_ses a1 = a_ses a2.
Proof.
  intros a1 a2 H1 H2 Er Es C1 C2.
  destruct (admission_joined a1 H1) as (_&_&_&_&_&L1). destruct (admission_joined a2 H2) as (_&_&_&_&_&L2).
  specialize (L1 C1). specialize (L2 C2). rewrite Er, Es in L1. congruence.
Qed.

(* same UID and session id: the same session, PROVIDED the sessions are owned in the sense of
   C17 (with finding F5 one UID can have two records; see C17_refuted_orphan) *)
Lemma same_uid_sid_same_session : forall a1 a2, owned s ->
  In a1 (g_log s) -> In a2 (g_log s) ->
  a_uid a1 = a_uid a2 -> a_sid a1 = a_sid a2 ->
  r_bypass (recs s (a_rec a1)) = false -> r_bypass (recs s (a_rec a2)) = false ->
  s_closed (sess s (a_ses a1)) = false -> s_closed (sess s (a_ses a2)) = false ->
  a_ses a1 = a_ses a2.
Proof.
  intros a1 a2 Ho H1 H2 Eu Es B1 B2 C1 C2.
  destruct (admission_joined a1 H1) as (_&K1&O1&_&U1&_). destruct (admission_joined a2 H2) as (_&K2&O2&_&U2&_).
  apply same_id_same_session; auto.
  pose proof (Ho _ K1 C1) as T1. pose proof (Ho _ K2 C2) as T2. cbv zeta in T1, T2.
  rewrite O1 in T1. rewrite O2 in T2. destruct (T1 B1) as [T1' _]. destruct (T2 B2) as [T2' _].
  rewrite U1 in T1'. rewrite U2, <- Eu in T2'. congruence.
Qed.

(* different session ids or different UIDs never share a session *)
Lemma no_sharing : forall a1 a2, In a1 (g_log s) -> In a2 (g_log s) ->
  a_ses a1 = a_ses a2 -> a_uid a1 = a_uid a2 /\ a_sid a1 = a_sid a2 /\ a_rec a1 = a_rec a2.
Proof.
  intros a1 a2 H1 H2 E.
  destruct (admission_joined a1 H1) as (_&_&O1&S1&U1&_). destruct (admission_joined a2 H2) as (_&_&O2&S2&U2&_).
  rewrite E in *. repeat split; congruence.
Qed.
End Sessions.

(* ------------------------------------------------------------------ C15_cap, C15_no_credit_no_session *)
(* whenever the session table of a limited user's record grows, AuthoriseNewSession has just
   said yes: the user exists, both credits are positive, it has not expired, and the table had
   fewer entries than the cap (read unsigned) *)
Lemma admission_checked : forall c s l s' r,
  step c s l = Some s' ->
  r_bypass (recs s r) = false ->
  length (r_sess (recs s r)) < length (r_sess (recs s' r)) ->
  exists dr, db s (r_uid (recs s r)) = Some dr
    /\ (0 < fst (d_credit dr))%Z /\ (0 < snd (d_credit dr))%Z /\ (now s <= d_exp dr)%Z
    /\ (Z.of_nat (length (r_sess (recs s' r))) <= cap_read dr)%Z
    /\ length (r_sess (recs s' r)) = S (length (r_sess (recs s r))).
Proof.
  intros c s l s' r H Hb Hlt.
  destruct (step_sess_growth _ _ _ _ r H) as [Hl|[[sd H4] H6]]; [lia|].
  destruct H6 as [H6|H6]; [congruence|].
  apply authorise_ok in H6. destruct H6 as (dr&E1&E2&E3&E4&E5).
  exists dr. rewrite H4. cbn [length]. repeat split; auto. lia.
Qed.

(* states reached while the configured cap of user u was at most cp whenever a step was taken *)
Definition cap_le (s : state) (u : N) (cp : Z) : Prop :=
  forall dr, db s u = Some dr -> (cap_read dr <= cp)%Z.

Inductive reach_capped (c : cfg) (d : dbmap) (nw : Z) (u : N) (cp : Z) : state -> Prop :=
| rc_init : reach_capped c d nw u cp (init d nw)
| rc_step : forall s l s', reach_capped c d nw u cp s -> cap_le s u cp ->
            step c s l = Some s' -> reach_capped c d nw u cp s'.

Lemma cap_respected : forall c d nw u cp s, (0 <= cp)%Z -> reach_capped c d nw u cp s ->
  forall r, r < nrec s -> r_uid (recs s r) = u -> r_bypass (recs s r) = false ->
  (Z.of_nat (length (r_sess (recs s r))) <= cp)%Z.
Proof.
  intros c d nw u cp s Hcp HR. induction HR as [|s l s' HR IH Hcap Hs]; intros r Hr Hu Hb.
  - cbn in Hr. lia.
  - destruct (step_rec_frame _ _ _ _ r Hs) as (Hn&Hold&Hnew).
    destruct (Nat.lt_ge_cases r (nrec s)) as [Lt|Ge].
    + destruct (Hold Lt) as [Eu Eb]. rewrite Eu in Hu. rewrite Eb in Hb.
      specialize (IH r Lt Hu Hb).
      destruct (Nat.le_gt_cases (length (r_sess (recs s' r))) (length (r_sess (recs s r)))) as [Le|Gt]; [lia|].
      destruct (admission_checked _ _ _ _ r Hs Hb Gt) as (dr&E1&_&_&_&E5&_).
      rewrite Hu in E1. specialize (Hcap _ E1). lia.
    + rewrite (Hnew Ge Hr). cbn. lia.
Qed.
