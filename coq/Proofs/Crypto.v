(* Structural facts about the concrete Gallina ciphers - lengths, xor cancellation and the
   AEAD round trip for ChaCha20-Poly1305 and AES-GCM, for ALL inputs.  None of this looks
   inside the ciphers' arithmetic: it only uses that blocks have a fixed size and tags a
   fixed length.  (Test vectors: Proofs/CryptoVectors.v.) *)
From Coq Require Import NArith List Bool Lia Arith PeanoNat.
From Cloak Require Import Model.Crypto.Salsa20 Model.Crypto.ChaCha20
  Model.Crypto.Poly1305 Model.Crypto.ChaChaPoly Model.Crypto.GCM Model.Crypto.X25519 Proofs.AEAD.
Import ListNotations.

Lemma words16_bytes_length : forall w, length (words16_bytes w) = 64.
Proof. intros. reflexivity. Qed.

Lemma salsa20_block_length : forall k n c, length (salsa20_block k n c) = 64.
Proof. intros. apply words16_bytes_length. Qed.

Lemma chacha20_block_length : forall k n c, length (chacha20_block k n c) = 64.
Proof. intros. apply words16_bytes_length. Qed.

Lemma salsa20_xor_length : forall k n d, length (salsa20_xor k n d) = length d.
Proof. intros. apply ctr_xor_length; [apply salsa20_block_length | lia]. Qed.

(* XORKeyStream with the same key and nonce twice is the identity *)
Lemma salsa20_xor_involutive : forall k n d, salsa20_xor k n (salsa20_xor k n d) = d.
Proof. intros. apply ctr_xor_involutive; [apply salsa20_block_length | lia]. Qed.

Lemma chacha20_xor_involutive : forall k n c d, chacha20_xor k n c (chacha20_xor k n c d) = d.
Proof. intros. apply ctr_xor_involutive; [apply chacha20_block_length | lia]. Qed.

(* ---- ChaCha20-Poly1305 -------------------------------------------------------------- *)
Lemma chachapoly_stream_covers : forall k n len, len <= length (chachapoly_stream k n len).
Proof. intros. apply ctr_stream_covers; [apply chacha20_block_length | lia]. Qed.

Lemma poly1305_length : forall k m, length (poly1305 k m) = 16.
Proof. intros. apply le_bytes_length. Qed.

Lemma chachapoly_mac_length : forall k n a c, length (chachapoly_mac k n a c) = 16.
Proof. intros. apply poly1305_length. Qed.

Theorem chachapoly_open_seal : forall key nonce p aad,
  chachapoly_open key nonce (chachapoly_seal key nonce p aad) aad = Some p.
Proof.
  intros. apply aead_open_seal; [apply chachapoly_stream_covers | apply chachapoly_mac_length].
Qed.

Lemma chachapoly_seal_length : forall key nonce p aad,
  length (chachapoly_seal key nonce p aad) = length p + 16.
Proof.
  intros. apply aead_seal_length; [apply chachapoly_stream_covers | apply chachapoly_mac_length].
Qed.

Lemma chachapoly_open_length : forall key nonce c aad p,
  chachapoly_open key nonce c aad = Some p -> length p + 16 = length c.
Proof.
  intros key nonce c aad p. exact (aead_open_length _ _ _ chachapoly_stream_covers key nonce c aad p).
Qed.

(* ---- AES-GCM ------------------------------------------------------------------------- *)
Lemma gcm_ks_block_length : forall rks n c, length (gcm_ks_block rks n c) = 16.
Proof. intros. apply force_length. Qed.

Lemma gcm_stream_covers : forall k n len, len <= length (gcm_stream k n len).
Proof. intros. apply ctr_stream_covers; [apply gcm_ks_block_length | lia]. Qed.

Lemma gcm_mac_length : forall k n a c, length (gcm_mac k n a c) = 16.
Proof. intros. apply force_length. Qed.

Theorem gcm_open_seal : forall key nonce p aad,
  gcm_open key nonce (gcm_seal key nonce p aad) aad = Some p.
Proof. intros. apply aead_open_seal; [apply gcm_stream_covers | apply gcm_mac_length]. Qed.

Lemma gcm_seal_length : forall key nonce p aad,
  length (gcm_seal key nonce p aad) = length p + 16.
Proof. intros. apply aead_seal_length; [apply gcm_stream_covers | apply gcm_mac_length]. Qed.

Lemma gcm_open_length : forall key nonce c aad p,
  gcm_open key nonce c aad = Some p -> length p + 16 = length c.
Proof. intros key nonce c aad p. exact (aead_open_length _ _ _ gcm_stream_covers key nonce c aad p). Qed.

Lemma gcm_open_inv : forall k n c a p, gcm_open k n c a = Some p -> c = gcm_seal k n p a.
Proof. intros k n c a p. exact (aead_open_inv _ _ _ gcm_stream_covers k n c a p). Qed.

(* ---- X25519 -------------------------------------------------------------------------- *)
Lemma le_encode_length : forall n z, length (le_encode n z) = n.
Proof. induction n; intros; cbn [le_encode length]; auto. Qed.
