(* Extra facts about the re-sequencer invariant of Proofs/Reorder.v needed when the set of
   frames of a stream grows over time (the sender keeps emitting): the invariant only looks at
   the frames that have arrived.  Also what a write does to a closed pipe and what a read does. *)
From Coq Require Import NArith List Lia Bool.
From Coq Require Import ZifyN ZifyBool.
From Cloak Require Import Model.Reorder Proofs.Reorder.
Import ListNotations.
Local Open Scope N_scope.

Lemma sorted_above_ext F F' lo h :
  (forall g, In g h -> F' (seq g) = F (seq g)) -> sorted_above F lo h -> sorted_above F' lo h.
Proof.
  revert lo; induction h as [|f t IH]; intros lo Hf Hs; cbn in *; [exact I|].
  destruct Hs as (H1 & H2 & H3 & H4). repeat split; try assumption.
  - rewrite Hf; [exact H3|now left].
  - apply IH; [intros g Hg; apply Hf; now right|exact H4].
Qed.

Lemma cat_ext F F' b k : (forall i, b <= i < b + N.of_nat k -> F' i = F i) -> cat F' b k = cat F b k.
Proof.
  revert b; induction k as [|k IH]; intros b H; [reflexivity|].
  unfold cat in *. cbn [range flat_map]. f_equal.
  - unfold P. rewrite H; [reflexivity|lia].
  - apply IH. intros i Hi. apply H. lia.
Qed.

Lemma Inv_ext F cl F' cl' b A st out n :
  Inv F cl b A st out ->
  (forall i, In i A -> i < n) ->
  (forall i, i < n -> F' i = F i) ->
  (cl' = cl \/ n <= cl') ->
  Inv F' cl' b A st out.
Proof.
  intros (k & Hn & Hpc & Hs & Ho & Hncl & HA) HAn HF Hcl.
  assert (Hlt : forall i, b <= i < next st -> i < n).
  { intros i Hi. apply HAn. apply HA. left. exact Hi. }
  exists k. repeat split; try assumption.
  - eapply sorted_above_ext; [|exact Hs]. intros g Hg. apply HF. apply HAn. apply HA. right. exists g. auto.
  - rewrite Ho. symmetry. apply cat_ext. intros i Hi. apply HF. apply Hlt. lia.
  - intros i Hi. destruct Hcl as [->|Hge]; [apply Hncl; exact Hi|]. specialize (Hlt i Hi). lia.
  - apply HA.
  - apply HA.
Qed.

(* a closed pipe ignores what the re-sequencer hands it *)
Lemma drain_closed_pipe h : forall nx p, snd (fst (drain true h nx p)) = p.
Proof.
  induction h as [|f t IH]; intros nx p; cbn; [reflexivity|].
  destruct (seq f =? nx); [|reflexivity]. destruct (closing f); [reflexivity|].
  unfold pipe_write. apply IH.
Qed.
Lemma rb_write_closed_pipe b f : pclosed b = true -> pipe (fst (fst (rb_write b f))) = pipe b.
Proof.
  intros Hc. unfold rb_write. rewrite Hc. destruct (is_nil (heap b) && (seq f =? next b)).
  - destruct (closing f); reflexivity.
  - destruct (seq f <? next b); [reflexivity|].
    pose proof (drain_closed_pipe (insert f (heap b)) (next b) (pipe b)) as H.
    destruct (drain true _ _ _) as [[[h nx] p] c]. cbn in *. exact H.
Qed.

(* a read that returns data takes a prefix of the pipe and leaves its closed flag alone *)
Lemma rb_read_data b k b' d :
  rb_read b k = (b', RdData d) -> pclosed b' = pclosed b /\ pipe b = d ++ pipe b'.
Proof.
  unfold rb_read. destruct (pipe b) as [|x p]; [destruct (pclosed b); discriminate|].
  intros H. injection H as <- <-. split; [reflexivity|]. symmetry. apply firstn_skipn.
Qed.
