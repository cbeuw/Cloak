(* C09 - Unauthenticated peers see only the redirect target, byte for byte.
   Only the property theorems, each proved in a line or two from the lemmas of Proofs/FirstPacket.v, Hello.v,
   Dispatch.v and DispatchInst.v.
   Vocabulary (Proofs/FirstPacket.v): sent_enough bsz s = the peer has sent a complete TLS record that fits the
   first-packet buffer, or a record too large for it, or a complete HTTP request head within the buffer, or a
   request whose head does not end within the buffer, or a first byte other than 0x16 / 0x47. *)
From Coq Require Import NArith ZArith List Bool.
From Cloak Require Import Gen.Consts Model.Hello Model.FirstPacket Model.Dispatch Model.DispatchInst
  Proofs.FirstPacket Proofs.Hello Proofs.Dispatch Proofs.DispatchInst.
Import ListNotations.
Local Open Scope N_scope.

(* generated obligation: the buffer holds a record header (breaks if firstPacketSize drops below 5) *)
Theorem C09_buffer_holds_header : (5 <= fps)%nat.
Proof. exact fps_ge_5. Qed.
Print Assumptions C09_buffer_holds_header.

(* In EVERY branch of readFirstPacket, error branches included, for every stream, ending and buffer size:
   the buffered bytes are exactly the first r_n bytes of the stream, the prefix replayed to the target
   (buf[:i]) is the same, the connection's next unread byte is byte number r_n: nothing lost, nothing twice. *)
Theorem C09_consumed_exact : forall (bsz : nat) (s : list N) (e : ending), (5 <= bsz)%nat ->
  let r := rfp_gen bsz s e in
  r_buf r = firstn (r_n r) s /\ r_rest r = skipn (r_n r) s /\ first_data r = firstn (r_n r) s
  /\ nth_error (r_rest r) 0 = nth_error s (r_n r)
  /\ (r_n r <= bsz)%nat /\ (r_n r <= length s)%nat /\ r_err r <> RFuel.
Proof. exact consumed_exact. Qed.
Print Assumptions C09_consumed_exact.

(* Once the peer has sent enough the decision is "redirect" and the target's input is the peer's stream,
   exactly; otherwise (the stream ended early) there is no redirect and the connection is closed. *)
Theorem C09_target_gets_everything : forall (bsz : nat) (s : list N) (e : ending), (5 <= bsz)%nat ->
  let r := rfp_gen bsz s e in
  (sent_enough bsz s -> r_redir r = true /\ r_closed r = false /\ relay r = s) /\
  (~ sent_enough bsz s -> r_redir r = false /\ r_closed r = true /\ r_err r = RRead e /\ r_n r = length s).
Proof. exact target_gets_everything. Qed.
Print Assumptions C09_target_gets_everything.

(* which prefix is replayed in the classes a prober cares about *)
Theorem C09_prefix_per_class : forall (bsz : nat) (s : list N) (e : ending), (5 <= bsz)%nat ->
  let r := rfp_gen bsz s e in
  (tls_oversize bsz s -> r_err r = RShortBuffer /\ r_n r = 5%nat) /\
  (unrecognised s -> r_err r = RUnrecognised /\ r_n r = 1%nat) /\
  (forall t1 t2 hi lo body tail, s = 0x16 :: t1 :: t2 :: hi :: lo :: body ++ tail ->
     N.of_nat (length body) = hi * 256 + lo -> hi * 256 + lo + 5 <= N.of_nat bsz ->
     r_err r = RNone /\ first_data r = 0x16 :: t1 :: t2 :: hi :: lo :: body /\ r_rest r = tail).
Proof. intros bsz s e _. exact (class_details bsz s e). Qed.
Print Assumptions C09_prefix_per_class.

(* io.ReadFull sees the same bytes whatever the segmentation of the stream *)
Theorem C09_segmentation : forall (chunks : list (list N)) (n : nat),
  let '(d, rest, ok) := read_full_seg n chunks in
  read_full n (concat chunks) = (d, concat rest, ok).
Proof. exact read_full_seg_eq. Qed.
Print Assumptions C09_segmentation.

(* The hand-written parsers: no panic gets past the recover() wrappers, their loops end within the model's
   fuel, and there is NO reachable panic in unmarshalClientHello / unmarshalHidden / processFirstPacket, for
   any input bytes and any X25519. *)
Theorem C09_parsers_total :
  (forall input, parseExtensions input <> Panic /\ parseExtensions input <> Err EFuel) /\
  (forall input, parseKeyShare input <> Panic /\ parseKeyShare input <> Err EFuel) /\
  (forall data, parseClientHello data <> Panic /\ parseClientHello data <> Err EFuel) /\
  (forall dh ch pv, unmarshalClientHello dh ch pv <> Panic /\ unmarshalClientHello dh ch pv <> Err EFuel) /\
  (forall dh data pv, tls_first_packet dh data pv <> Panic /\ tls_first_packet dh data pv <> Err EFuel) /\
  (forall dh hidden pv, ws_first_packet dh hidden pv <> Panic /\ ws_first_packet dh hidden pv <> Err EFuel).
Proof.
  exact (conj parseExtensions_total (conj parseKeyShare_total (conj parseClientHello_total
        (conj unmarshalClientHello_total (conj tls_first_packet_total ws_first_packet_total))))).
Qed.
Print Assumptions C09_parsers_total.

(* decryptClientInfo indexes the plaintext OUTSIDE any recover(): it cannot panic because AES-GCM opening strips
   exactly the tag from the fixed 64-byte block.  Stated for every cipher with that length property ... *)
Theorem C09_no_crash : forall dh gcm_open,
  (forall k n ct aad pt, gcm_open k n ct aad = Some pt -> (length pt + 16 = length ct)%nat) ->
  forall p st now, decide dh gcm_open p st now <> Crash.
Proof. exact decide_no_crash. Qed.
Print Assumptions C09_no_crash.
(* ... and discharged for the Gallina AES-GCM the correspondence runs *)
Theorem C09_no_crash_gcm : forall dh p st now, decide_gcm dh p st now <> Crash.
Proof. exact decide_gcm_no_crash. Qed.
Print Assumptions C09_no_crash_gcm.

(* On every rejection path of the dispatch decision the server writes nothing of its own: it originates bytes
   only towards sessions; a rejected complete first packet (parse error, replay, decryption failure, window,
   encryption byte, proxy method, UID - any reason) is handed to goWeb with prefix ++ rest = the stream;
   over-long / unrecognisable streams likewise; a stream that ended early is closed. *)
Theorem C09_no_server_byte : forall dh gcm_open,
  (forall k n ct aad pt, gcm_open k n ct aad = Some pt -> (length pt + 16 = length ct)%nat) ->
  forall (http_hidden : list N -> option (list N)) (s : list N) (e : ending) (st : server_state) (now : Z),
  let r := rfp s e in
  let o := dispatch_conn dh gcm_open http_hidden s e st now in
  (server_writes o = true <->
     r_err r = RNone /\ is_session (decide dh gcm_open (packet_of http_hidden r) st now)) /\
  (forall why, r_err r = RNone -> decide dh gcm_open (packet_of http_hidden r) st now = Redirect why ->
     o = OWeb (first_data r) (r_rest r) /\ first_data r ++ r_rest r = s) /\
  (r_err r <> RNone -> (r_redir r = true -> o = OWeb (first_data r) (r_rest r) /\ first_data r ++ r_rest r = s)
                       /\ (r_redir r = false -> o = OClose)) /\
  o <> OCrash.
Proof. exact dispatch_no_server_byte. Qed.
Print Assumptions C09_no_server_byte.

(* Exactly one outcome per connection: it is relayed to the redirect target (then with prefix ++ rest = the whole
   stream) or answered by the server itself, never both; it is relayed exactly when the first packet was read and
   the decision is a Redirect (parse, replay, decryption, window, encryption byte, PROXY METHOD, UID) or when
   readFirstPacket failed with its redirect flag set. *)
Theorem C09_one_outcome : forall dh gcm_open,
  (forall k n ct aad pt, gcm_open k n ct aad = Some pt -> (length pt + 16 = length ct)%nat) ->
  forall (http_hidden : list N -> option (list N)) (s : list N) (e : ending) (st : server_state) (now : Z),
  let r := rfp s e in
  let o := dispatch_conn dh gcm_open http_hidden s e st now in
  (relays o = true -> server_writes o = false) /\ (server_writes o = true -> relays o = false) /\
  (relays o = true <->
     (r_err r = RNone /\ exists why, decide dh gcm_open (packet_of http_hidden r) st now = Redirect why) \/
     (r_err r <> RNone /\ r_redir r = true)) /\
  (relays o = true -> o = OWeb (first_data r) (r_rest r) /\ first_data r ++ r_rest r = s).
Proof. intros dh gcm_open _. exact (one_outcome dh gcm_open). Qed.
Print Assumptions C09_one_outcome.

(* a valid credential naming a proxy method the server does not serve is web traffic, nothing else *)
Theorem C09_unknown_method_is_web : forall dh gcm_open,
  (forall k n ct aad pt, gcm_open k n ct aad = Some pt -> (length pt + 16 = length ct)%nat) ->
  forall p st now ci,
  auth_first_packet dh gcm_open p st now = DOk ci -> known_enc (ci_enc ci) = true -> is_admin st ci = false ->
  ~ In (ci_method ci) (st_proxyBook st) ->
  decide dh gcm_open p st now = Redirect RMethod.
Proof. intros dh gcm_open _. exact (unknown_method_is_web dh gcm_open). Qed.
Print Assumptions C09_unknown_method_is_web.

(* and the relay itself only ever passes the other side's bytes on; a failed dial / first write closes the peer *)
Theorem C09_relay_bytes : forall data rest e d t,
  let w := goweb data rest e d t in
  (w_peer w = [] \/ w_peer w = t_reply t) /\ (w_target w = [] \/ w_target w = data ++ rest) /\
  (d <> DialOk -> w_peer_closed w = true /\ w_peer w = [] /\ w_target w = []).
Proof. exact goweb_bytes. Qed.
Print Assumptions C09_relay_bytes.
