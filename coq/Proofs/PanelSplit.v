(* Proofs about Model/PanelSplit.v: what holding the lock across the steps buys.

   GetUser:      held = true   every run of the split steps, in any interleaving and with any
                               answers of the user database, is a run of the ATOMIC GetUser in the
                               order in which the calls released the lock (refinement); one record
                               per UID; every caller of a UID gets that record;
                 held = false  refuted by a six-step run.
   commitUpdate: early = true  ledger invariant over all label sequences (every byte counted is in
                               exactly one of valve / queue / in flight / charged);
                 early = false refuted twice (usage lost, usage charged twice). *)
From Coq Require Import ZArith NArith List Bool Lia.
From Cloak Require Import Model.PanelSplit.
Import ListNotations.

(* ------------------------------------------------------------------ lists *)
Lemma length_set_nth : forall A (l : list A) i x, length (set_nth l i x) = length l.
Proof. induction l as [|h t IH]; intros [|i] x; cbn; auto. Qed.

Lemma nth_set_nth : forall A (l : list A) i j x d, i < length l ->
  nth j (set_nth l i x) d = if Nat.eqb j i then x else nth j l d.
Proof.
  induction l as [|h t IH]; intros i j x d Hlt; cbn in Hlt; [lia|].
  destruct i as [|i], j as [|j]; cbn; auto.
  apply IH. lia.
Qed.

(* ------------------------------------------------------------------ 1. GetUser *)
Definition holder (p : gpc) : bool :=
  match p with GLocked _ | GLooked _ | GAuthed _ _ => true | _ => false end.

Definition res_agree (r r' : option nat) : bool :=
  match r, r' with Some a, Some b => Nat.eqb a b | None, None => true | _, _ => false end.

Lemma replay_atomic_unfold : forall tb n u ok r rest,
  replay_atomic tb n ((u, ok, r) :: rest) =
  (let '(tb', n', r') := atomic_getuser tb n u ok in
   let '(tb'', n'', good) := replay_atomic tb' n' rest in
   (tb'', n'', good && res_agree r r')).
Proof. reflexivity. Qed.

Lemma replay_app : forall log tb n u ok r tb1 n1 g1,
  replay_atomic tb n log = (tb1, n1, g1) ->
  replay_atomic tb n (log ++ [(u, ok, r)]) =
  (let '(tb2, n2, r') := atomic_getuser tb1 n1 u ok in (tb2, n2, g1 && res_agree r r')).
Proof.
  induction log as [|[[u0 ok0] r0] rest IH]; intros tb n u ok r tb1 n1 g1 H.
  - cbn in H. inversion H; subst. cbn [app]. rewrite replay_atomic_unfold.
    destruct (atomic_getuser tb1 n1 u ok) as [[tb2 n2] r']. cbn. reflexivity.
  - cbn [app]. rewrite replay_atomic_unfold in *.
    destruct (atomic_getuser tb n u0 ok0) as [[tb' n'] r0'].
    destruct (replay_atomic tb' n' rest) as [[tbx nx] gx] eqn:E.
    inversion H; subst.
    rewrite (IH tb' n' u ok r tb1 n1 gx E).
    destruct (atomic_getuser tb1 n1 u ok) as [[tb2 n2] r'].
    f_equal. destruct gx, (res_agree r r'), (res_agree r0 r0'); reflexivity.
Qed.

(* what the program counter of thread t says about the lock and the table: between taking the lock
   and releasing it the thread owns it; after a missed look-up the uid is still absent; a returned
   record is the one in the table *)
Definition thr_ok (lk : option nat) (tb : N -> option nat) (t : nat) (p : gpc) : Prop :=
  match p with
  | GLocked _ => lk = Some t
  | GLooked u | GAuthed u _ => lk = Some t /\ tb u = None
  | GDone u (Some r) => tb u = Some r
  | _ => True
  end.

Record GInv (s : gstate) : Prop := {
  gi_thr : forall t, thr_ok (g_lock s) (g_table s) t (gget s t);
  gi_log : exists tb, replay_atomic (fun _ => None) 0 (g_log s) = (tb, g_nrec s, true)
                      /\ forall u, tb u = g_table s u
}.

Lemma gi_lock : forall s, GInv s -> forall t, holder (gget s t) = true -> g_lock s = Some t.
Proof. intros s I t H. pose proof (gi_thr s I t) as T. destruct (gget s t); cbn in *; try discriminate; tauto. Qed.

Lemma gi_done : forall s, GInv s -> forall t u r, gget s t = GDone u (Some r) -> g_table s u = Some r.
Proof. intros s I t u r H. pose proof (gi_thr s I t) as T. now rewrite H in T. Qed.

Definition all_start (thr : list gpc) : Prop := Forall (fun p => exists u, p = GStart u) thr.

Lemma nth_all_start : forall thr t, all_start thr ->
  nth t thr GNone = GNone \/ exists u, nth t thr GNone = GStart u.
Proof.
  intros thr t H. destruct (Nat.lt_ge_cases t (length thr)) as [Hlt|Hge].
  - right. unfold all_start in H. rewrite Forall_forall in H. apply H. apply nth_In; assumption.
  - left. apply nth_overflow; assumption.
Qed.

Lemma ginv_init : forall thr, all_start thr -> GInv (g_init thr).
Proof.
  intros thr H. constructor; unfold gget, g_init; cbn.
  - intros t. destruct (nth_all_start thr t H) as [->|[u ->]]; exact I.
  - exists (fun _ => None). split; reflexivity.
Qed.

Lemma gget_lt : forall s t, gget s t <> GNone -> t < length (g_thr s).
Proof.
  intros s t H. destruct (Nat.lt_ge_cases t (length (g_thr s))) as [Hlt|Hge]; [assumption|].
  exfalso. apply H. unfold gget. apply nth_overflow; assumption.
Qed.

Lemma gget_goto : forall s t p t' tb n lk lg, t < length (g_thr s) ->
  gget (mkG tb n lk (ggoto s t p) lg) t' = if Nat.eqb t' t then p else gget s t'.
Proof. intros. unfold gget, ggoto. cbn. apply nth_set_nth; assumption. Qed.

(* Thread t moves to p'.  It can do so only when the lock is free or its own, so no other thread is
   between lock and release; the others stay in order if no table entry is lost. *)
Lemma ginv_move : forall s t p' tb' n' lk' lg', GInv s -> t < length (g_thr s) ->
  thr_ok lk' tb' t p' ->
  (g_lock s = None \/ g_lock s = Some t) ->
  (forall u r, g_table s u = Some r -> tb' u = Some r) ->
  (exists tb, replay_atomic (fun _ => None) 0 lg' = (tb, n', true) /\ forall u, tb u = tb' u) ->
  GInv (mkG tb' n' lk' (ggoto s t p') lg').
Proof.
  intros s t p' tb' n' lk' lg' I Hlt Hp Hlk Htb Hlog. constructor; [|exact Hlog].
  intros t'. cbn [g_lock g_table]. rewrite gget_goto by exact Hlt. destruct (Nat.eqb_spec t' t) as [->|ne]; [exact Hp|].
  pose proof (gi_thr s I t') as T. destruct (gget s t') as [| | | | ? [?|]|]; cbn in *; auto;
    destruct Hlk as [E|E]; rewrite E in *; intuition congruence.
Qed.

Lemma ginv_step : forall s t ok s', GInv s -> gstep true s t ok = Some s' -> GInv s'.
Proof.
  intros s t ok s' I Hs. unfold gstep in Hs. pose proof (gi_thr s I t) as T.
  assert (Hlt : gget s t <> GNone -> t < length (g_thr s)) by apply gget_lt.
  destruct (gi_log s I) as [tb [Hr Hp]].
  destruct (gget s t) as [u|u|u|u a|u r|] eqn:Ep; try discriminate; cbn in T;
    (assert (L : t < length (g_thr s)) by (apply Hlt; discriminate)).
  - (* GStart: take the lock *)
    destruct (g_lock s) eqn:El; [discriminate|]. injection Hs as <-.
    apply ginv_move; cbn; eauto.
  - (* GLocked: look the uid up *)
    destruct (g_table s u) as [r|] eqn:Et; injection Hs as <-; apply ginv_move; cbn; eauto.
    + exists tb. split; [|assumption]. rewrite (replay_app _ _ _ u false (Some r) _ _ _ Hr).
      unfold atomic_getuser. rewrite Hp, Et. cbn. now rewrite Nat.eqb_refl.
  - (* GLooked: the database answers *)
    injection Hs as <-. apply ginv_move; cbn; eauto. tauto.
  - (* GAuthed: insert or give up, and release *)
    destruct T as [T Hmiss]. cbn in Hs. destruct a; injection Hs as <-; apply ginv_move; cbn; eauto.
    + unfold updN'. now rewrite N.eqb_refl.
    + intros u' r' E. unfold updN'. destruct (N.eqb_spec u' u) as [->|]; [congruence | exact E].
    + exists (updN' tb u (Some (g_nrec s))). split.
      * rewrite (replay_app _ _ _ u true (Some (g_nrec s)) _ _ _ Hr).
        unfold atomic_getuser. rewrite Hp, Hmiss. cbn. now rewrite Nat.eqb_refl.
      * intros u'. unfold updN'. destruct (N.eqb u' u); [reflexivity | apply Hp].
    + exists tb. split; [|assumption]. rewrite (replay_app _ _ _ u false None _ _ _ Hr).
      unfold atomic_getuser. now rewrite Hp, Hmiss.
Qed.

Lemma ginv_run : forall thr sched s,
  all_start thr -> grun true (g_init thr) sched = Some s -> GInv s.
Proof.
  intros thr sched s Ha. generalize (ginv_init thr Ha). generalize (g_init thr).
  induction sched as [|[t ok] rest IH]; intros s0 I H; cbn in H.
  - now injection H as <-.
  - destruct (gstep true s0 t ok) as [s1|] eqn:E; [|discriminate]. eauto using ginv_step.
Qed.

(* One record per UID: two calls for the same UID that returned a record returned the same one, and
   it is the one the panel holds. *)
Lemma split_one_record : forall thr sched s t1 t2 u r1 r2,
  all_start thr -> grun true (g_init thr) sched = Some s ->
  gget s t1 = GDone u (Some r1) -> gget s t2 = GDone u (Some r2) ->
  r1 = r2 /\ g_table s u = Some r1.
Proof.
  intros thr sched s t1 t2 u r1 r2 Ha Hr H1 H2.
  assert (I : GInv s) by (eapply ginv_run; eauto).
  pose proof (gi_done s I t1 u r1 H1) as E1. pose proof (gi_done s I t2 u r2 H2) as E2.
  rewrite E1 in E2. inversion E2; subst. split; [reflexivity|exact E1].
Qed.

(* While a call is between its lookup and its insertion nobody else can get past the lock: the
   second caller is blocked until the first is released (what the harness observes as "L"). *)
Lemma split_second_caller_blocked : forall thr sched s t t' u ok,
  all_start thr -> grun true (g_init thr) sched = Some s ->
  holder (gget s t) = true -> gget s t' = GStart u -> gstep true s t' ok = None.
Proof.
  intros thr sched s t t' u ok Ha Hr Hh Hs.
  assert (I : GInv s) by (eapply ginv_run; eauto).
  unfold gstep. rewrite Hs. rewrite (gi_lock s I t Hh). reflexivity.
Qed.

(* the schedule of the seeded change: both calls look the UID up before either inserts *)
Definition unlocked_schedule : list (nat * bool) :=
  [(0, true); (1, true); (0, true); (1, true); (0, true); (1, true)].

Lemma split_unlocked_two_records :
  exists s, grun false (g_init [GStart 1%N; GStart 1%N]) unlocked_schedule = Some s
  /\ gget s 0 = GDone 1%N (Some 0) /\ gget s 1 = GDone 1%N (Some 1)
  /\ g_table s 1%N = Some 1 /\ g_nrec s = 2
  /\ (let '(_, _, good) := replay_atomic (fun _ => None) 0 (g_log s) in good) = false.
Proof. eexists. split; [vm_compute; reflexivity|]. vm_compute. repeat split; reflexivity. Qed.

Lemma split_unlocked_two_valves :
  exists s, grun false (g_init [GStart 1%N; GStart 1%N]) unlocked_schedule = Some s
  /\ gget s 0 = GDone 1%N (Some 0) /\ gget s 1 = GDone 1%N (Some 1) /\ g_nrec s = 2.
Proof. eexists. split; [vm_compute; reflexivity|]. vm_compute. repeat split; reflexivity. Qed.

(* the same schedule with the lock held is not even a run: the second lookup has to wait *)
Lemma split_held_schedule_blocks :
  grun true (g_init [GStart 1%N; GStart 1%N]) unlocked_schedule = None.
Proof. vm_compute. reflexivity. Qed.

(* the hypotheses of ginv_run (and so of the refinement, its gi_log) are met by a run in which a second caller arrives while
   the first is inside AuthenticateUser, waits, and then finds the record *)
Definition held_schedule : list (nat * bool) :=
  [(0, true); (0, true); (0, true); (0, true); (1, true); (1, true)].
Lemma split_held_example :
  exists s, grun true (g_init [GStart 1%N; GStart 1%N]) held_schedule = Some s
  /\ gget s 0 = GDone 1%N (Some 0) /\ gget s 1 = GDone 1%N (Some 0) /\ g_nrec s = 1.
Proof. eexists. split; [vm_compute; reflexivity|]. vm_compute. repeat split; reflexivity. Qed.

(* ------------------------------------------------------------------ 2. commitUpdate *)
Local Open Scope Z_scope.

Definition cweight (p : cpc) : Z := match p with CRead st => st | _ => 0 end.

Lemma inflight_set_nth : forall thr t p, (t < length thr)%nat ->
  inflight (set_nth thr t p) = inflight thr - cweight (nth t thr CDone) + cweight p.
Proof.
  induction thr as [|h rest IH]; intros t p Hlt; cbn in Hlt; [lia|].
  destruct t as [|t].
  - cbn [set_nth nth]. destruct h, p; cbn; lia.
  - cbn [set_nth nth]. assert (H : (t < length rest)%nat) by lia. specialize (IH t p H).
    destruct h; cbn [inflight]; rewrite IH; lia.
Qed.

Definition no_uploaded (thr : list cpc) : Prop := Forall (fun p => p <> CUploaded) thr.

Lemma no_uploaded_set_nth : forall thr t p, no_uploaded thr -> p <> CUploaded -> no_uploaded (set_nth thr t p).
Proof.
  unfold no_uploaded. induction thr as [|h rest IH]; intros t p H Hp; cbn; [constructor|].
  inversion H; subst. destruct t; constructor; auto.
Qed.

Lemma nth_no_uploaded : forall thr t, no_uploaded thr -> nth t thr CDone <> CUploaded.
Proof.
  intros thr t H. destruct (Nat.lt_ge_cases t (length thr)) as [Hlt|Hge].
  - unfold no_uploaded in H. rewrite Forall_forall in H. apply H. apply nth_In; assumption.
  - rewrite nth_overflow by assumption. discriminate.
Qed.

(* the ledger of the split commitUpdate; no thread is ever at CUploaded when early = true *)
Definition CInv (s : cstate) : Prop :=
  c_counted s = c_valve s + c_queue s + inflight (c_thr s) + c_charged s /\ no_uploaded (c_thr s).

Lemma nth_lt_of_ne : forall (thr : list cpc) t, nth t thr CDone <> CDone -> (t < length thr)%nat.
Proof.
  intros thr t H. destruct (Nat.lt_ge_cases t (length thr)) as [Hlt|Hge]; [assumption|].
  exfalso. apply H. apply nth_overflow; assumption.
Qed.

Lemma cinv_step : forall s l s', CInv s -> cstep true s l = Some s' -> CInv s'.
Proof.
  intros s l s' [Hc Hn] Hs. destruct l as [n| |t]; cbn in Hs.
  - destruct (0 <=? n); inversion Hs; subst; clear Hs. split; cbn; [lia|assumption].
  - inversion Hs; subst; clear Hs. split; cbn; [lia|assumption].
  - destruct (nth t (c_thr s) CDone) as [|st| |] eqn:Ep; try discriminate;
      [| |exfalso; now apply (nth_no_uploaded (c_thr s) t Hn)].
    all: assert (Hlt : (t < length (c_thr s))%nat) by (apply nth_lt_of_ne; rewrite Ep; discriminate).
    all: injection Hs as <-; split; cbn; [|apply no_uploaded_set_nth; [assumption|discriminate]].
    all: rewrite inflight_set_nth, Ep by assumption; cbn; lia.
Qed.

Lemma inflight_all_idle : forall thr, Forall (fun p => p = CIdle) thr -> inflight thr = 0 /\ no_uploaded thr.
Proof.
  induction thr as [|h rest IH]; intros H; [split; [reflexivity|constructor]|].
  inversion H; subst. destruct (IH H3) as [E N]. split; [cbn; assumption|constructor; [discriminate|assumption]].
Qed.

(* Ledger over ALL label sequences (any number of commitUpdate activations overlapping each other,
   traffic and collection rounds in any interleaving), the queue being emptied in the critical
   section that reads it: every byte the valve counted is in exactly one place. *)
Lemma commit_early_conservation : forall thr ls s,
  Forall (fun p => p = CIdle) thr -> crun true (c_init thr) ls = Some s ->
  c_counted s = c_valve s + c_queue s + inflight (c_thr s) + c_charged s.
Proof.
  intros thr ls s Hi Hr.
  assert (I0 : CInv (c_init thr)) by (destruct (inflight_all_idle thr Hi) as [E N]; split; cbn; [lia|assumption]).
  assert (G : forall ls s0 s1, CInv s0 -> crun true s0 ls = Some s1 -> CInv s1).
  { induction ls0 as [|l rest IH]; intros s0 s1 I H; cbn in H.
    - inversion H; subst; assumption.
    - destruct (cstep true s0 l) as [sm|] eqn:E; [|discriminate].
      apply (IH sm s1); [apply (cinv_step s0 l sm I E)|assumption]. }
  apply (G ls (c_init thr) s I0 Hr).
Qed.

Lemma inflight_quiet : forall thr,
  forallb (fun p => match p with CDone => true | CIdle => true | _ => false end) thr = true -> inflight thr = 0.
Proof.
  induction thr as [|h rest IH]; intros H; [reflexivity|].
  cbn in H. apply andb_true_iff in H. destruct H as [Hh Hr]. destruct h; try discriminate; cbn; auto.
Qed.

(* ... hence exactly once: when traffic has stopped, everything has been collected and no upload
   is in flight, what was charged is what was carried *)
Lemma commit_early_exactly_once : forall thr ls s,
  Forall (fun p => p = CIdle) thr -> crun true (c_init thr) ls = Some s ->
  c_quiet s = true -> c_charged s = c_counted s.
Proof.
  intros thr ls s Hi Hr Hq. pose proof (commit_early_conservation thr ls s Hi Hr) as E.
  unfold c_quiet in Hq. apply andb_true_iff in Hq. destruct Hq as [Hq Hf].
  apply andb_true_iff in Hq. destruct Hq as [Hv Hqq].
  apply Z.eqb_eq in Hv. apply Z.eqb_eq in Hqq. rewrite (inflight_quiet _ Hf) in E. lia.
Qed.

(* the queue emptied only AFTER the upload, in a second critical section (seeded change C16_m2):
   usage collected while the upload is in flight is wiped ... *)
Definition late_lost : list clabel :=
  [CTraffic 100; CCollect; CRun 0; CTraffic 50; CCollect; CRun 0; CRun 0].
Lemma commit_late_loses :
  exists s, crun false (c_init [CIdle]) late_lost = Some s
  /\ c_quiet s = true /\ c_counted s = 150 /\ c_charged s = 100.
Proof. eexists. split; [vm_compute; reflexivity|]. vm_compute. repeat split; reflexivity. Qed.

(* ... and two overlapping rounds charge the same usage twice *)
Definition late_twice : list clabel :=
  [CTraffic 100; CCollect; CRun 0; CRun 1; CRun 0; CRun 1; CRun 0; CRun 1].
Lemma commit_late_charges_twice :
  exists s, crun false (c_init [CIdle; CIdle]) late_twice = Some s
  /\ c_quiet s = true /\ c_counted s = 100 /\ c_charged s = 200.
Proof. eexists. split; [vm_compute; reflexivity|]. vm_compute. repeat split; reflexivity. Qed.

(* the same two schedules with the code as it is: nothing lost, nothing twice *)
Lemma commit_early_same_schedules :
  (exists s, crun true (c_init [CIdle]) [CTraffic 100; CCollect; CRun 0; CTraffic 50; CCollect; CRun 0] = Some s
             /\ c_counted s = 150 /\ c_charged s = 100 /\ c_queue s = 50)
  /\ (exists s, crun true (c_init [CIdle; CIdle]) [CTraffic 100; CCollect; CRun 0; CRun 1; CRun 0; CRun 1] = Some s
             /\ c_quiet s = true /\ c_counted s = 100 /\ c_charged s = 100).
Proof. split; eexists; (split; [vm_compute; reflexivity|]); vm_compute; repeat split; reflexivity. Qed.
