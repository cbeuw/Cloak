(* Proofs about Model/Auth.v: the 48-byte plaintext (pack / unpack), the acceptance window, base64,
   the reply offsets, and the agreement of client and server for both transports (C06). *)
From Coq Require Import NArith ZArith List Bool Arith Lia ZifyN ZifyNat ZifyBool.
From Cloak Require Import Model.HelloGrammar Model.Auth Proofs.ListFacts Proofs.HelloGrammar.
Import ListNotations.
Local Open Scope N_scope.

Lemma zeros_length : forall n, length (zeros n) = n.
Proof. intros. apply repeat_length. Qed.
Lemma zeros_app : forall a b, zeros (a + b) = zeros a ++ zeros b.
Proof. intros. apply repeat_app. Qed.

Lemma fit_length : forall n l, length (fit n l) = n.
Proof. intros. unfold fit. apply firstn_length_le. rewrite app_length, zeros_length. lia. Qed.
Lemma fit_exact : forall n l, length l = n -> fit n l = l.
Proof. intros n l H. apply firstn_app_exact. exact H. Qed.

Lemma sub_length : forall lo hi l, (hi <= length l)%nat -> length (sub lo hi l) = (hi - lo)%nat.
Proof. intros. unfold sub. rewrite firstn_length, skipn_length. lia. Qed.

Lemma sub_mid : forall l a b c lo hi, l = a ++ b ++ c -> lo = length a -> hi = (lo + length b)%nat ->
  sub lo hi l = b.
Proof.
  intros l a b c lo hi -> -> ->. unfold sub. rewrite skipn_app_exact by reflexivity. apply firstn_app_exact. lia.
Qed.

Lemma sub_front : forall a b n, length a = n -> sub 0 n (a ++ b) = a.
Proof. intros a b n H. unfold sub. cbn [skipn]. rewrite Nat.sub_0_r. apply firstn_app_exact. exact H. Qed.

Lemma sub_split : forall k n l, length l = n -> (k <= n)%nat -> sub 0 k l ++ sub k n l = l.
Proof.
  intros k n l H Hk. unfold sub. cbn [skipn]. rewrite Nat.sub_0_r. rewrite <- (firstn_skipn k l) at 3. f_equal.
  apply firstn_all2. rewrite skipn_length. lia.
Qed.

Lemma nth_mid : forall (l a c : list N) x i d, l = a ++ x :: c -> i = length a -> nth i l d = x.
Proof. intros l a c x i d -> ->. apply nth_middle. Qed.

Lemma put_at_mid : forall off src dst a b c, dst = a ++ b ++ c -> length a = off -> length b = length src ->
  put_at off src dst = a ++ src ++ c.
Proof.
  intros off src dst a b c -> Ha Hb. unfold put_at.
  rewrite !app_length, Ha.
  replace (Nat.min (length src) (off + (length b + length c) - off)) with (length src) by lia.
  rewrite firstn_all, firstn_app_exact, (app_assoc a b c), skipn_app_exact by (rewrite ?app_length; lia). reflexivity.
Qed.

(* a write into the zeroed part of a buffer, at the end of what has been written so far *)
Lemma put_at_zeros : forall off a src k, off = length a -> (length src <= k)%nat ->
  put_at off src (a ++ zeros k) = (a ++ src) ++ zeros (k - length src).
Proof.
  intros off a src k Ha Hk. rewrite <- app_assoc.
  apply (put_at_mid off src _ a (zeros (length src)) (zeros (k - length src))); [|auto|apply zeros_length].
  rewrite <- zeros_app. do 2 f_equal. lia.
Qed.

Lemma upd_at_mid : forall i f dst a x c, dst = a ++ x :: c -> length a = i -> upd_at i f dst = a ++ f x :: c.
Proof.
  intros i f dst a x c -> Ha. unfold upd_at. rewrite skipn_app_exact, firstn_app_exact by exact Ha. reflexivity.
Qed.

Lemma be_dec_acc : forall l acc, fold_left (fun a b => a * 256 + b) l acc = acc * 256 ^ lenN l + be_dec l.
Proof.
  induction l as [|b l IH]; intros acc.
  - unfold be_dec. cbn [fold_left]. rewrite lenN_nil. change (256 ^ 0) with 1. lia.
  - unfold be_dec. cbn [fold_left]. rewrite (IH (acc * 256 + b)), (IH (0 * 256 + b)).
    rewrite lenN_cons. rewrite N.pow_add_r. change (256 ^ 1) with 256. lia.
Qed.
Lemma be_dec_cons : forall b l, be_dec (b :: l) = b * 256 ^ lenN l + be_dec l.
Proof. intros. unfold be_dec at 1. cbn [fold_left]. rewrite be_dec_acc. lia. Qed.

Lemma be_enc_length : forall n x, length (be_enc n x) = n.
Proof. induction n; intros; cbn [be_enc length]; [reflexivity|]. rewrite IHn. reflexivity. Qed.

Lemma be_dec_enc : forall n x, be_dec (be_enc n x) = x mod 256 ^ N.of_nat n.
Proof.
  induction n as [|n IH]; intros x.
  - cbn [be_enc]. change (256 ^ N.of_nat 0) with 1. rewrite N.mod_1_r. reflexivity.
  - cbn [be_enc]. rewrite be_dec_cons, IH. unfold lenN. rewrite be_enc_length.
    replace (N.of_nat (S n)) with (N.of_nat n + 1) by lia.
    rewrite N.pow_add_r. change (256 ^ 1) with 256.
    assert (Hp : 256 ^ N.of_nat n <> 0) by (apply N.pow_nonzero; discriminate).
    rewrite (N.mod_mul_r x (256 ^ N.of_nat n) 256) by (assumption || discriminate). lia.
Qed.

Lemma drop0_nonzero_head : forall l, nth 0 l 0 <> 0 -> drop0 l = l.
Proof. intros [|x l] H; [reflexivity|]. cbn [nth] in H. cbn [drop0]. destruct x; [congruence|reflexivity]. Qed.
Lemma drop0_zeros_app : forall n l, drop0 (zeros n ++ l) = drop0 l.
Proof. induction n; intros; cbn [zeros repeat app drop0]; [reflexivity|]. apply IHn. Qed.
Lemma rev_zeros : forall n, rev (zeros n) = zeros n.
Proof.
  induction n; [reflexivity|]. unfold zeros in *. cbn [repeat rev]. rewrite IHn.
  change [0] with (repeat 0 1). rewrite <- repeat_app. replace (n + 1)%nat with (S n) by lia. reflexivity.
Qed.
Lemma nth0_rev_last : forall (l : list N) d, nth 0 (rev l) d = last l d.
Proof.
  induction l as [|x l IH]; intros d; [reflexivity|].
  cbn [rev]. destruct l as [|y l]; [reflexivity|].
  rewrite app_nth1. 2:{ cbn [rev]. rewrite app_length. cbn [length]. lia. }
  rewrite IH. reflexivity.
Qed.

(* the guard of the round trip: no NUL at either end (which also makes the name non-empty) *)
Definition no_nul_ends (m : list N) : Prop := nth 0 m 0 <> 0 /\ last m 0 <> 0.

Lemma trim0_padded : forall m n, no_nul_ends m -> trim0 (m ++ zeros n) = m.
Proof.
  intros m n [Hh Hl]. unfold trim0.
  rewrite (drop0_nonzero_head (m ++ zeros n)).
  2:{ destruct m as [|x m]; [cbn [nth] in Hh; congruence|]. exact Hh. }
  rewrite rev_app_distr, rev_zeros, drop0_zeros_app.
  rewrite drop0_nonzero_head by (rewrite nth0_rev_last; exact Hl).
  apply rev_involutive.
Qed.

Definition flag_byte (unordered : bool) : N := if unordered then N.lor 0 client_flag else 0.

(* the layout of the 48 bytes, for a 16-byte UID *)
Lemma pack_layout : forall i ts, length (i_uid i) = 16%nat ->
  let m := firstn 12 (i_method i) in
  pack i ts = i_uid i ++ (m ++ zeros (12 - length m)) ++ [i_enc i] ++ be_enc 8 ts ++ be_enc 4 (i_sid i) ++
              [flag_byte (i_unordered i)] ++ zeros 6.
Proof.
  intros i ts Hu m. unfold pack. fold m.
  assert (Hm : (length m <= 12)%nat) by (unfold m; rewrite firstn_length; lia).
  (* every write but one lands where the previous one ended; plaintext[28] follows the gap the method name leaves *)
  change (zeros 48) with ([] ++ zeros 48).
  rewrite (put_at_zeros 0), (put_at_zeros 16) by (cbn [length app]; lia). cbn [app].
  rewrite Hu. replace (48 - 16 - length m)%nat with ((12 - length m) + 20)%nat by lia. rewrite zeros_app, app_assoc.
  rewrite (put_at_zeros 28), (put_at_zeros 29), (put_at_zeros 37)
    by (rewrite ?app_length, ?zeros_length, ?be_enc_length, ?Hu; cbn [length]; lia).
  rewrite !be_enc_length. cbn [length]. change (20 - 1 - 8 - 4)%nat with 7%nat.
  destruct (i_unordered i); unfold flag_byte.
  - rewrite (upd_at_mid 41 _ _ _ 0 (zeros 6) eq_refl)
      by (rewrite !app_length, zeros_length, !be_enc_length, Hu; cbn [length]; lia).
    rewrite <- !app_assoc. reflexivity.
  - rewrite <- !app_assoc. reflexivity.
Qed.

Lemma pack_length : forall i ts, length (i_uid i) = 16%nat -> length (pack i ts) = 48%nat.
Proof.
  intros i ts Hu. rewrite pack_layout by exact Hu. cbv zeta.
  rewrite !app_length, !be_enc_length, !zeros_length, Hu. cbn [length].
  assert (length (firstn 12 (i_method i)) <= 12)%nat by (rewrite firstn_length; lia). lia.
Qed.

(* generated obligation about the two UNORDERED_FLAG constants (client and server package) *)
Lemma flag_constants_agree :
  negb (N.land (N.lor 0 client_flag) server_flag =? 0) = true /\ negb (N.land 0 server_flag =? 0) = false.
Proof. split; vm_compute; reflexivity. Qed.

Lemma tolerance_is_180s : tolerance = (180 * 1000000000)%Z.
Proof. reflexivity. Qed.

(* decryptClientInfo's slices of a plaintext given by its fields *)
Lemma unpack_layout : forall uid m enc tsb sidb flag pad now,
  length uid = 16%nat -> length m = 12%nat -> length tsb = 8%nat -> length sidb = 4%nat ->
  unpack (uid ++ m ++ [enc] ++ tsb ++ sidb ++ [flag] ++ pad) now =
  let unordered := negb (N.land flag server_flag =? 0) in
  if in_window (be_dec tsb) now then UOk (mkInfo uid (trim0 m) enc (be_dec sidb) unordered)
  else UWindow (mkInfo uid (trim0 m) enc 0 unordered).
Proof.
  intros uid m enc tsb sidb flag pad now Hu Hm Ht Hs. unfold unpack.
  replace (length (uid ++ m ++ [enc] ++ tsb ++ sidb ++ [flag] ++ pad) <? 42)%nat with false
    by (symmetry; apply Nat.ltb_ge; rewrite !app_length, Hu, Hm, Ht, Hs; cbn [length]; lia).
  rewrite (sub_front uid),
          (sub_mid _ uid m ([enc] ++ tsb ++ sidb ++ [flag] ++ pad) 16 28),
          (nth_mid _ (uid ++ m) (tsb ++ sidb ++ [flag] ++ pad) enc 28),
          (sub_mid _ (uid ++ m ++ [enc]) tsb (sidb ++ [flag] ++ pad) 29 37),
          (sub_mid _ (uid ++ m ++ [enc] ++ tsb) sidb ([flag] ++ pad) 37 41),
          (nth_mid _ (uid ++ m ++ [enc] ++ tsb ++ sidb) pad flag 41)
    by (rewrite <- ?app_assoc, ?app_length; cbn [length]; auto; lia).
  cbn [i_uid i_method i_enc i_unordered]. destruct (in_window (be_dec tsb) now); reflexivity.
Qed.

(* what the server reads back from a packed plaintext: every field but the timestamp check *)
Lemma unpack_pack_fields : forall i ts now, length (i_uid i) = 16%nat -> i_sid i < 2 ^ 32 -> ts < 2 ^ 64 ->
  let i' := mkInfo (i_uid i) (trim0 (firstn 12 (i_method i) ++ zeros (12 - length (firstn 12 (i_method i)))))
                   (i_enc i) (i_sid i) (i_unordered i) in
  unpack (pack i ts) now =
  if in_window ts now then UOk i'
  else UWindow (mkInfo (i_uid i') (i_method i') (i_enc i') 0 (i_unordered i')).
Proof.
  intros i ts now Hu Hs Ht i'. rewrite pack_layout by exact Hu. cbv zeta.
  assert (Hm : (length (firstn 12 (i_method i)) <= 12)%nat) by (rewrite firstn_length; lia).
  rewrite unpack_layout by (rewrite ?app_length, ?zeros_length, ?be_enc_length; lia). cbv zeta.
  rewrite !be_dec_enc. change (256 ^ N.of_nat 8) with (2 ^ 64). change (256 ^ N.of_nat 4) with (2 ^ 32).
  rewrite (N.mod_small ts), (N.mod_small (i_sid i)) by assumption.
  replace (negb (N.land (flag_byte (i_unordered i)) server_flag =? 0)) with (i_unordered i)
    by (destruct (i_unordered i); symmetry; apply flag_constants_agree).
  reflexivity.
Qed.

Definition info_in_domain (i : info) : Prop :=
  length (i_uid i) = 16%nat /\ (length (i_method i) <= 12)%nat /\ no_nul_ends (i_method i) /\ i_sid i < 2 ^ 32.

Lemma plaintext_roundtrip : forall i ts now,
  info_in_domain i -> ts < 2 ^ 64 -> in_window ts now = true ->
  unpack (pack i ts) now = UOk i.
Proof.
  intros i ts now (Hu & Hm & Hn & Hs) Ht Hw.
  rewrite unpack_pack_fields by assumption. cbv zeta. rewrite Hw.
  rewrite (firstn_all2 (i_method i)) by lia. rewrite trim0_padded by exact Hn.
  destruct i; reflexivity.
Qed.

Lemma plaintext_outside_window : forall i ts now,
  info_in_domain i -> ts < 2 ^ 64 -> in_window ts now = false ->
  exists i0, unpack (pack i ts) now = UWindow i0.
Proof.
  intros i ts now (Hu & Hm & Hn & Hs) Ht Hw.
  rewrite unpack_pack_fields by assumption. cbv zeta. rewrite Hw. eexists. reflexivity.
Qed.

(* the guards are exact *)
Definition ex_uid : list N := [0;1;2;3;4;5;6;7;8;9;10;11;12;13;14;15].
Example method_trailing_nul_lost :
  unpack (pack (mkInfo ex_uid [97; 0] 1 5 false) 1700000000) 1700000000000000000%Z
  = UOk (mkInfo ex_uid [97] 1 5 false).
Proof. vm_compute. reflexivity. Qed.
Example method_leading_nul_lost :
  unpack (pack (mkInfo ex_uid [0; 97] 1 5 false) 1700000000) 1700000000000000000%Z
  = UOk (mkInfo ex_uid [97] 1 5 false).
Proof. vm_compute. reflexivity. Qed.
Example method_13_truncated :
  unpack (pack (mkInfo ex_uid [116;104;105;114;116;101;101;110;95;98;121;116;101] 1 5 false) 1700000000) 1700000000000000000%Z
  = UOk (mkInfo ex_uid [116;104;105;114;116;101;101;110;95;98;121;116] 1 5 false).
Proof. vm_compute. reflexivity. Qed.
(* copy(plaintext, UID) is not limited to 16 bytes: a longer UID spills into the method field *)
Example uid_18_spills :
  unpack (pack (mkInfo (ex_uid ++ [16; 17]) [97] 1 5 false) 1700000000) 1700000000000000000%Z
  = UOk (mkInfo ex_uid [97; 17] 1 5 false).
Proof. vm_compute. reflexivity. Qed.
Example empty_method_in_domain_is_impossible : ~ no_nul_ends [].
Proof. intros [H _]. apply H. reflexivity. Qed.

From Cloak Require Model.Dispatch Proofs.Dispatch.
Local Open Scope Z_scope.
(* decryptClientInfo's window stands a second time in Model/Dispatch.v (the C07 side): it is the same function, so
   the facts about it are proved once, in Proofs/Dispatch.v *)
Lemma in_window_dispatch : forall ts now, in_window ts now = Cloak.Model.Dispatch.in_window ts now.
Proof. reflexivity. Qed.

(* accepted iff |ts * 10^9 - now| < 180 * 10^9, in nanoseconds, both comparisons strict *)
Lemma window_exact : forall (ts : N) (now : Z), (ts < 2 ^ 62)%N ->
  in_window ts now = true <-> Z.abs (Z.of_N ts * 1000000000 - now) < 180 * 1000000000.
Proof.
  intros ts now H. rewrite in_window_dispatch, Cloak.Proofs.Dispatch.in_window_iff by lia.
  rewrite Cloak.Proofs.Dispatch.tolerance_180s. unfold Cloak.Model.Dispatch.ns_per_s. lia.
Qed.

Lemma window_unpack : forall i (ts : N) now, info_in_domain i -> (ts < 2 ^ 62)%N ->
  (exists i', unpack (pack i ts) now = UOk i') <-> Z.abs (Z.of_N ts * 1000000000 - now) < 180 * 1000000000.
Proof.
  intros i ts now Hd Ht. rewrite <- (window_exact ts now Ht).
  assert (Ht' : (ts < 2 ^ 64)%N) by lia.
  destruct (in_window ts now) eqn:E.
  - split; [reflexivity|]. intros _. exists i. apply plaintext_roundtrip; assumption.
  - split; [|discriminate]. intros [i' Hi'].
    destruct (plaintext_outside_window i ts now Hd Ht' E) as (i0 & Hi0). congruence.
Qed.

(* the session id is read only after the window check *)
Lemma sid_only_inside_window : forall pt now i0, unpack pt now = UWindow i0 -> i_sid i0 = 0%N.
Proof.
  intros pt now i0 H. unfold unpack in H.
  destruct (length pt <? 42)%nat; [discriminate|].
  destruct (negb (in_window _ now)); [|discriminate]. inversion H. reflexivity.
Qed.

Lemma client_ts_lt : forall c_now, (client_ts c_now < 2 ^ 64)%N.
Proof.
  intros. unfold client_ts. pose proof (Z.mod_pos_bound (c_now / ns_per_s) (2 ^ 64) eq_refl). lia.
Qed.

(* the timestamp the client writes: whole seconds; the truncation can cost up to one second *)
Lemma client_ts_spec : forall c_now, 0 <= c_now -> c_now / 1000000000 < 2 ^ 62 ->
  Z.of_N (client_ts c_now) = c_now / 1000000000 /\ (client_ts c_now < 2 ^ 62)%N.
Proof.
  intros c_now H0 H1. unfold client_ts, ns_per_s.
  assert (0 <= c_now / 1000000000) by (apply Z.div_pos; lia).
  rewrite Z.mod_small by lia. split; lia.
Qed.

Lemma offset_suffices : forall c_now s_now, 0 <= c_now -> c_now / 1000000000 < 2 ^ 62 ->
  - (179 * 1000000000) <= c_now - s_now < 180 * 1000000000 ->
  in_window (client_ts c_now) s_now = true.
Proof.
  intros c_now s_now H0 H1 Ho.
  destruct (client_ts_spec c_now H0 H1) as [E Hlt].
  apply window_exact; [exact Hlt|]. rewrite E. lia.
Qed.

(* an offset strictly inside (-180 s, -179 s) can be rejected: the client's clock is 179.5 s behind,
   its sub-second part is 0.9 s *)
Example truncation_edge :
  let c_now := 1700000000900000000 in let s_now := c_now + 179500000000 in
  Z.abs (c_now - s_now) < 180 * 1000000000 /\ in_window (client_ts c_now) s_now = false.
Proof. split; vm_compute; reflexivity. Qed.
Local Close Scope Z_scope.

Lemma b64_val_char : forall v, v < 64 -> b64_val (b64_char v) = Some v.
Proof.
  intros v Hv. unfold b64_char.
  destruct (N.ltb_spec v 26); [|destruct (N.ltb_spec v 52); [|destruct (N.ltb_spec v 62); [|destruct (N.eqb_spec v 62)]]];
    unfold b64_val.
  - replace ((65 <=? 65 + v) && (65 + v <=? 90)) with true by lia. f_equal. lia.
  - replace ((65 <=? 97 + (v - 26)) && (97 + (v - 26) <=? 90)) with false by lia.
    replace ((97 <=? 97 + (v - 26)) && (97 + (v - 26) <=? 122)) with true by lia. f_equal. lia.
  - replace ((65 <=? 48 + (v - 52)) && (48 + (v - 52) <=? 90)) with false by lia.
    replace ((97 <=? 48 + (v - 52)) && (48 + (v - 52) <=? 122)) with false by lia.
    replace ((48 <=? 48 + (v - 52)) && (48 + (v - 52) <=? 57)) with true by lia. f_equal. lia.
  - subst. reflexivity.
  - assert (v = 63) by lia. subst. reflexivity.
Qed.
Lemma b64_char_not_pad : forall v, (b64_char v =? 61) = false.
Proof.
  intros v. unfold b64_char.
  destruct (N.ltb_spec v 26); [|destruct (N.ltb_spec v 52); [|destruct (N.ltb_spec v 62); [|destruct (N.eqb_spec v 62)]]]; lia.
Qed.

Definition wf_bytes (l : list N) : Prop := Forall (fun b => b < 256) l.

Lemma b64_quantum : forall a b c, a < 256 -> b < 256 -> c < 256 ->
  let v0 := a / 4 in let v1 := (a mod 4) * 16 + b / 16 in let v2 := (b mod 16) * 4 + c / 64 in let v3 := c mod 64 in
  v0 < 64 /\ v1 < 64 /\ v2 < 64 /\ v3 < 64 /\
  v0 * 4 + v1 / 16 = a /\ (v1 mod 16) * 16 + v2 / 4 = b /\ (v2 mod 4) * 64 + v3 = c.
Proof.
  intros a b c Ha Hb Hc.
  (* with a = 4 a1 + a0, b = 16 b1 + b0, c = 64 c1 + c0 named first, lia only has the six digits to recombine *)
  pose proof (N.div_mod a 4 ltac:(discriminate)) as Da. pose proof (N.mod_lt a 4 ltac:(discriminate)) as Ma.
  pose proof (N.div_mod b 16 ltac:(discriminate)) as Db. pose proof (N.mod_lt b 16 ltac:(discriminate)) as Mb.
  pose proof (N.div_mod c 64 ltac:(discriminate)) as Dc. pose proof (N.mod_lt c 64 ltac:(discriminate)) as Mc.
  revert Da Ma Db Mb Dc Mc. generalize (a / 4) (a mod 4) (b / 16) (b mod 16) (c / 64) (c mod 64).
  intros. cbv zeta. repeat split; lia.
Qed.

Lemma b64_roundtrip_fuel : forall n l f, (length l <= n)%nat -> (length l <= 3 * f)%nat -> wf_bytes l ->
  b64_decode_fuel f (b64_encode l) = l.
Proof.
  induction n as [|n IH]; intros l f Hn Hf Hw.
  - destruct l; [|cbn [length] in Hn; lia]. destruct f; reflexivity.
  - destruct l as [|a [|b [|c t]]].
    + destruct f; reflexivity.
    + destruct f as [|f]; [cbn [length] in Hf; lia|].
      inversion Hw as [|? ? Ha _]; subst.
      destruct (b64_quantum a 0 0 Ha) as (H0 & H1 & _ & _ & E0 & _); try lia. cbv zeta in *.
      cbn [b64_encode b64_decode_fuel].
      replace (a mod 4 * 16 + 0 / 16) with (a mod 4 * 16) in * by lia.
      rewrite !b64_val_char by assumption. cbn [N.eqb andb]. change ((61 =? 61) && (61 =? 61)) with true. cbv iota.
      rewrite E0. reflexivity.
    + destruct f as [|f]; [cbn [length] in Hf; lia|].
      inversion Hw as [|? ? Ha Hw']; subst. inversion Hw' as [|? ? Hb _]; subst.
      destruct (b64_quantum a b 0 Ha Hb) as (H0 & H1 & H2 & _ & E0 & E1 & _); try lia. cbv zeta in *.
      cbn [b64_encode b64_decode_fuel].
      replace (b mod 16 * 4 + 0 / 64) with (b mod 16 * 4) in * by lia.
      rewrite !b64_val_char by assumption.
      rewrite b64_char_not_pad. cbn [andb]. rewrite N.eqb_refl. rewrite E0, E1. reflexivity.
    + destruct f as [|f]; [cbn [length] in Hf; lia|].
      inversion Hw as [|? ? Ha Hw']; subst. inversion Hw' as [|? ? Hb Hw'']; subst.
      inversion Hw'' as [|? ? Hc Hwt]; subst.
      destruct (b64_quantum a b c Ha Hb Hc) as (H0 & H1 & H2 & H3 & E0 & E1 & E2). cbv zeta in *.
      cbn [b64_encode b64_decode_fuel].
      rewrite !b64_val_char by assumption.
      rewrite !b64_char_not_pad. cbn [andb]. rewrite E0, E1, E2.
      rewrite (IH t f); [reflexivity| | |exact Hwt]; clear - Hn Hf; cbn [length] in *; lia.
Qed.

Lemma b64_encode_length : forall n l, (length l <= n)%nat -> (length l <= 3 * length (b64_encode l))%nat.
Proof.
  induction n as [|n IH]; intros l Hn.
  - destruct l; [cbn; lia|cbn [length] in Hn; lia].
  - destruct l as [|a [|b [|c t]]]; cbn [b64_encode length]; try lia.
    assert (length t <= 3 * length (b64_encode t))%nat by (apply IH; cbn [length] in Hn; lia). lia.
Qed.

Lemma b64_roundtrip : forall l, wf_bytes l -> b64_decode (b64_encode l) = l.
Proof.
  intros l Hw. unfold b64_decode. apply (b64_roundtrip_fuel (length l)); [lia| |exact Hw].
  apply (b64_encode_length (length l)). lia.
Qed.

Definition sh_random (nonce encKey : list N) : list N := fit 12 nonce ++ sub 0 20 (fit 48 encKey).
Definition sh_share (encKey filler : list N) : list N :=
  put_at 28 (fit 4 filler) (put_at 0 (sub 20 48 (fit 48 encKey)) (zeros 32)).

Lemma sh_random_length : forall n e, length (sh_random n e) = 32%nat.
Proof. intros. unfold sh_random. rewrite app_length, fit_length, sub_length; [reflexivity|rewrite fit_length; lia]. Qed.
Lemma sh_share_eq : forall e f, sh_share e f = sub 20 48 (fit 48 e) ++ fit 4 f.
Proof.
  intros. unfold sh_share. change (zeros 32) with ([] ++ zeros 32).
  assert (L : length (sub 20 48 (fit 48 e)) = 28%nat) by (rewrite sub_length; [reflexivity|rewrite fit_length; lia]).
  rewrite (put_at_zeros 0), (put_at_zeros 28) by (rewrite ?app_length, ?L, ?fit_length; cbn [length]; lia).
  rewrite L, fit_length. apply app_nil_r.
Qed.
Lemma sh_share_length : forall e f, length (sh_share e f) = 32%nat.
Proof. intros. rewrite sh_share_eq, app_length, sub_length, fit_length by (rewrite fit_length; lia). reflexivity. Qed.

Lemma compose_server_hello_layout : forall sid nonce encKey filler,
  compose_server_hello sid nonce encKey filler =
  [2; 0; 0; 0x76; 3; 3] ++ sh_random nonce encKey ++ [0x20] ++ sid ++
  [0x13; 0x02; 0; 0; 0x2e; 0; 0x33; 0; 0x24; 0; 0x1d; 0; 0x20] ++ sh_share encKey filler ++ [0; 0x2b; 0; 2; 3; 4].
Proof.
  intros. unfold compose_server_hello. fold (sh_random nonce encKey). fold (sh_share encKey filler).
  rewrite <- !app_assoc. reflexivity.
Qed.

Lemma compose_server_hello_length : forall sid nonce encKey filler, length sid = 32%nat ->
  length (compose_server_hello sid nonce encKey filler) = 122%nat.
Proof.
  intros. rewrite compose_server_hello_layout, !app_length, sh_random_length, sh_share_length, H. reflexivity.
Qed.

(* the client's offsets: buf[6:38] is the ServerHello random, buf[84:116] the key share, for a 32-byte session id *)
Lemma client_offsets : forall sid nonce encKey filler pad, length sid = 32%nat ->
  let buf := compose_server_hello sid nonce encKey filler ++ pad in
  sub 6 38 buf = sh_random nonce encKey /\ sub 84 116 buf = sh_share encKey filler.
Proof.
  intros sid nonce encKey filler pad Hs buf. unfold buf. rewrite compose_server_hello_layout. split.
  - eapply (sub_mid _ [2; 0; 0; 0x76; 3; 3] (sh_random nonce encKey));
      [rewrite <- !app_assoc; reflexivity | reflexivity | rewrite sh_random_length; reflexivity].
  - eapply (sub_mid _ ([2; 0; 0; 0x76; 3; 3] ++ sh_random nonce encKey ++ [0x20] ++ sid ++
                       [0x13; 0x02; 0; 0; 0x2e; 0; 0x33; 0; 0x24; 0; 0x1d; 0; 0x20]) (sh_share encKey filler));
      [rewrite <- !app_assoc; reflexivity | rewrite !app_length, sh_random_length, Hs; reflexivity
      | rewrite sh_share_length; reflexivity].
Qed.

(* ... and they reassemble exactly nonce ++ encrypted key *)
Lemma reassembly : forall nonce encKey filler, length nonce = 12%nat -> length encKey = 48%nat ->
  let encrypted := sh_random nonce encKey ++ sh_share encKey filler in
  sub 0 12 encrypted = nonce /\ sub 12 60 encrypted = encKey.
Proof.
  intros nonce encKey filler Hn He encrypted. unfold encrypted, sh_random. rewrite sh_share_eq.
  rewrite (fit_exact 12 nonce Hn), (fit_exact 48 encKey He).
  rewrite <- app_assoc, (app_assoc (sub 0 20 encKey)), (sub_split 20 48) by (auto; lia).
  split; [apply sub_front; exact Hn | apply (sub_mid _ nonce encKey (fit 4 filler)); auto; lia].
Qed.

Lemma reply_offsets : forall sid nonce encKey filler pad,
  length sid = 32%nat -> length nonce = 12%nat -> length encKey = 48%nat ->
  let buf := compose_server_hello sid nonce encKey filler ++ pad in
  let encrypted := sub 6 38 buf ++ sub 84 116 buf in
  sub 0 12 encrypted = nonce /\ sub 12 60 encrypted = encKey.
Proof.
  intros sid nonce encKey filler pad Hs Hn He buf encrypted.
  destruct (client_offsets sid nonce encKey filler pad Hs) as [E1 E2].
  unfold encrypted, buf. cbv zeta in E1, E2. rewrite E1, E2. exact (reassembly nonce encKey filler Hn He).
Qed.

(* addRecordLayer writes a record of the grammar, the reply is three of them, TLSConn.Read takes one off the stream *)
Lemma add_record_layer_enc : forall input typ,
  add_record_layer input typ [3; 3] = enc_record (mkRec typ 0x0303 input).
Proof.
  intros. unfold add_record_layer, enc_record, u16. cbn [be_enc r_type r_ver r_body].
  change (256 ^ N.of_nat 1) with 256. change (256 ^ N.of_nat 0) with 1. rewrite N.div_1_r. reflexivity.
Qed.

Lemma compose_reply_records : forall sid nonce encKey filler cert,
  compose_reply sid nonce encKey filler cert =
  concat (map enc_record [mkRec 22 0x0303 (compose_server_hello sid nonce encKey filler); mkRec 20 0x0303 [1];
                          mkRec 23 0x0303 cert]).
Proof. intros. unfold compose_reply. rewrite !add_record_layer_enc. cbn [map concat]. rewrite app_nil_r. reflexivity. Qed.

Lemma tlsconn_read_enc : forall r rest bufsize,
  lenN (r_body r) < 65536 -> (5 <= bufsize)%nat -> (length (r_body r) <= bufsize)%nat ->
  tlsconn_read bufsize (enc_record r ++ rest) = Some (r_body r, rest).
Proof.
  intros [t v body] rest bufsize Hl Hb Hb2. cbn [r_body] in *. unfold tlsconn_read, enc_record, u16. cbn [r_type r_ver r_body].
  replace (bufsize <? 5)%nat with false by (symmetry; apply Nat.ltb_ge; lia).
  rewrite <- !app_assoc, (app_assoc [t]), (app_assoc ([t] ++ _)).
  rewrite (g_take_app_n 5) by reflexivity.
  unfold sub. cbn [skipn firstn Nat.sub app]. unfold be_dec. cbn [fold_left N.mul N.add]. rewrite (u16_dec _ Hl), to_nat_lenN.
  replace (bufsize <? length body)%nat with false by (symmetry; apply Nat.ltb_ge; lia).
  apply g_take_app.
Qed.

Section Agreement.
  Variable dh : list N -> list N -> option (list N).
  Variable pub : list N -> list N.
  Variable seal : list N -> list N -> list N -> list N -> list N.
  Variable open : list N -> list N -> list N -> list N -> option (list N).

  Hypothesis dh_comm : forall a b, dh a (pub b) = dh b (pub a).   (* NOT proved for X25519: validated against Go on every run *)
  Hypothesis pub_length : forall a, length (pub a) = 32%nat.
  Hypothesis open_seal : forall k n p a, open k n (seal k n p a) a = Some p.
  Hypothesis seal_length : forall k n p a, length (seal k n p a) = (length p + 16)%nat.

  Lemma client_payload_ok : forall i ts ephPv staticPv secret, length (i_uid i) = 16%nat ->
    dh ephPv (pub staticPv) = Some secret ->
    client_payload dh pub seal i ts ephPv (pub staticPv) =
    Some (pub ephPv, seal (fit 32 secret) (firstn 12 (pub ephPv)) (pack i ts) [], fit 32 secret) /\
    length (seal (fit 32 secret) (firstn 12 (pub ephPv)) (pack i ts) []) = 64%nat.
  Proof.
    intros i ts ephPv staticPv secret Hu Hdh. unfold client_payload. rewrite Hdh.
    rewrite (fit_exact 32 (pub ephPv)) by apply pub_length.
    assert (L : length (seal (fit 32 secret) (firstn 12 (pub ephPv)) (pack i ts) []) = 64%nat)
      by (rewrite seal_length, pack_length by exact Hu; reflexivity).
    rewrite (fit_exact 64 _ L). split; [reflexivity|exact L].
  Qed.

  Lemma decrypt_ok : forall i ts now shared randPub sid,
    info_in_domain i -> ts < 2 ^ 64 -> in_window ts now = true ->
    decrypt_client_info open shared randPub (seal shared (firstn 12 randPub) (pack i ts) []) sid now
    = Accept i shared sid.
  Proof.
    intros i ts now shared randPub sid Hd Ht Hw. unfold decrypt_client_info.
    rewrite open_seal. rewrite plaintext_roundtrip by assumption. reflexivity.
  Qed.

  (* the client's three reads of the server's reply *)
  Lemma reply_roundtrip_tls : forall shared sid key nonce filler cert,
    length sid = 32%nat -> length key = 32%nat -> length nonce = 12%nat -> (length cert <= 1024)%nat ->
    client_finish_tls open shared (server_reply_tls seal shared sid key nonce filler cert) = Some key.
  Proof.
    intros shared sid key nonce filler cert Ls Hk Hn Hc. unfold server_reply_tls, client_finish_tls.
    rewrite (fit_exact 12 nonce Hn).
    set (ek := seal shared nonce key []).
    assert (Lek : length ek = 48%nat) by (unfold ek; rewrite seal_length, Hk; reflexivity).
    rewrite (fit_exact 48 ek Lek), compose_reply_records. cbn [map concat].
    pose proof (compose_server_hello_length sid nonce ek filler Ls) as Lsh.
    rewrite !tlsconn_read_enc by (unfold lenN; cbn [r_body length]; lia). cbn [r_body].
    change (zeros 1024) with ([] ++ zeros 1024). rewrite (put_at_zeros 0), Lsh by (cbn [length]; lia). cbn [app].
    destruct (reply_offsets sid nonce ek filler (zeros (1024 - 122)) Ls Hn Lek) as [R1 R2]. cbv zeta in R1, R2.
    rewrite R1, R2. unfold ek. rewrite open_seal, (fit_exact 32 key Hk). reflexivity.
  Qed.

  (* direct transport, for every ClientHello in which the grammar finds the three fields *)
  Lemma agreement_tls_located : forall i ts s_now ephPv staticPv secret hello key nonce filler cert,
    info_in_domain i -> ts < 2 ^ 64 -> in_window ts s_now = true ->
    dh ephPv (pub staticPv) = Some secret ->
    length key = 32%nat -> length nonce = 12%nat -> (length cert <= 1024)%nat ->
    let shared := fit 32 secret in
    let ct := seal shared (firstn 12 (pub ephPv)) (pack i ts) [] in
    locate_fields hello = Some (pub ephPv, sub 0 32 ct, sub 32 64 ct) ->
    server_process_tls dh open hello staticPv s_now = Accept i shared (sub 0 32 ct) /\
    client_finish_tls open shared (server_reply_tls seal shared (sub 0 32 ct) key nonce filler cert) = Some key.
  Proof.
    intros i ts s_now ephPv staticPv secret hello key nonce filler cert Hd Ht Hw Hdh Hk Hn Hc shared ct Hloc.
    assert (Hu : length (i_uid i) = 16%nat) by apply Hd.
    destruct (client_payload_ok i ts ephPv staticPv secret Hu Hdh) as [_ Lct]. fold shared in Lct. fold ct in Lct.
    assert (Ls : length (sub 0 32 ct) = 32%nat) by (apply sub_length; lia).
    split.
    - unfold server_process_tls. rewrite Hloc.
      rewrite (fit_exact 32 (pub ephPv)) by apply pub_length.
      rewrite dh_comm, Hdh. rewrite (sub_split 32 64) by (auto; lia). rewrite Lct. cbn [Nat.eqb negb].
      rewrite (fit_exact 64 ct Lct). fold shared. unfold ct. apply decrypt_ok; assumption.
    - apply reply_roundtrip_tls; assumption.
  Qed.

  (* direct transport, hello written by the composer from any well-formed skeleton *)
  Lemma agreement_tls : forall sk i c_now s_now ephPv staticPv secret key nonce filler cert,
    wf_skeleton sk = true ->
    info_in_domain i -> in_window (client_ts c_now) s_now = true ->
    dh ephPv (pub staticPv) = Some secret ->
    length key = 32%nat -> length nonce = 12%nat -> (length cert <= 1024)%nat ->
    exists hello shared sid,
      client_first_packet_tls dh pub seal sk i (client_ts c_now) ephPv (pub staticPv) = Some (hello, shared) /\
      server_process_tls dh open hello staticPv s_now = Accept i shared sid /\
      client_finish_tls open shared (server_reply_tls seal shared sid key nonce filler cert) = Some key.
  Proof.
    intros sk i c_now s_now ephPv staticPv secret key nonce filler cert Hsk Hd Hw Hdh Hk Hn Hc.
    assert (Hu : length (i_uid i) = 16%nat) by apply Hd.
    pose proof (client_ts_lt c_now) as Ht.
    destruct (client_payload_ok i (client_ts c_now) ephPv staticPv secret Hu Hdh) as [Ep Lct].
    set (shared := fit 32 secret) in *. set (ct := seal shared (firstn 12 (pub ephPv)) (pack i (client_ts c_now)) []) in *.
    exists (mk_client_hello sk (pub ephPv) (sub 0 32 ct) (sub 32 64 ct)), shared, (sub 0 32 ct).
    split; [unfold client_first_packet_tls; rewrite Ep; reflexivity|].
    apply (agreement_tls_located i (client_ts c_now) s_now ephPv staticPv secret _ key nonce filler cert); try assumption.
    assert (L1 : length (sub 0 32 ct) = 32%nat) by (rewrite sub_length by (rewrite Lct; lia); reflexivity).
    assert (L2 : length (sub 32 64 ct) = 32%nat) by (rewrite sub_length by (rewrite Lct; lia); reflexivity).
    apply locate_mk_client_hello; [exact Hsk|apply pub_length|exact L1|exact L2].
  Qed.

  (* CDN transport: from the `hidden` header to the 60-byte message.  base64 carries bytes: *)
  Hypothesis pub_bytes : forall a, wf_bytes (pub a).
  Hypothesis seal_bytes : forall k n p a, wf_bytes (seal k n p a).

  Lemma agreement_ws : forall i c_now s_now ephPv staticPv secret key nonce,
    info_in_domain i -> in_window (client_ts c_now) s_now = true ->
    dh ephPv (pub staticPv) = Some secret ->
    length key = 32%nat -> length nonce = 12%nat ->
    exists hidden shared,
      client_first_packet_ws dh pub seal i (client_ts c_now) ephPv (pub staticPv) = Some (hidden, shared) /\
      server_process_ws dh open hidden staticPv s_now = Accept i shared [] /\
      client_finish_ws open shared (server_reply_ws seal shared key nonce) = Some key.
  Proof.
    intros i c_now s_now ephPv staticPv secret key nonce Hd Hw Hdh Hk Hn.
    assert (Hu : length (i_uid i) = 16%nat) by apply Hd.
    pose proof (client_ts_lt c_now) as Ht.
    destruct (client_payload_ok i (client_ts c_now) ephPv staticPv secret Hu Hdh) as [Ep Lct].
    set (shared := fit 32 secret) in *. set (ct := seal shared (firstn 12 (pub ephPv)) (pack i (client_ts c_now)) []) in *.
    exists (b64_encode (pub ephPv ++ ct)), shared.
    split; [unfold client_first_packet_ws; rewrite Ep; reflexivity|]. split.
    - unfold server_process_ws. rewrite b64_roundtrip.
      2:{ apply Forall_app. split; [apply pub_bytes|apply seal_bytes]. }
      rewrite app_length, pub_length, Lct. cbn [Nat.ltb Nat.leb].
      rewrite sub_front, (skipn_app_exact 32), (fit_exact 32 (pub ephPv)) by apply pub_length.
      rewrite dh_comm, Hdh, Lct. cbn [Nat.eqb negb]. rewrite (fit_exact 64 ct Lct).
      fold shared. unfold ct. apply decrypt_ok; assumption.
    - unfold client_finish_ws, server_reply_ws.
      rewrite app_length, seal_length, Hn, Hk. cbn [Nat.add Nat.eqb negb].
      rewrite sub_front, (skipn_app_exact 12), open_seal, (fit_exact 32 key Hk) by exact Hn. reflexivity.
  Qed.
End Agreement.

From Cloak Require Import Model.Crypto.X25519 Model.Crypto.GCM Proofs.Crypto.

(* the two AEAD hypotheses of the agreement hold of the Gallina AES-GCM *)
Lemma gcm_is_aead :
  (forall k n p a, gcm_open k n (gcm_seal k n p a) a = Some p) /\
  (forall k n p a, length (gcm_seal k n p a) = (length p + 16)%nat).
Proof. exact (conj gcm_open_seal gcm_seal_length). Qed.

Lemma pub_x25519_length : forall a, length (pub_x25519 a) = 32%nat.
Proof. intros. unfold pub_x25519, x25519_base, x25519. apply le_encode_length. Qed.

(* the four hypotheses of the direct-transport agreement are satisfiable (a toy commutative "DH" and a toy AEAD);
   the two byte-ness hypotheses agreement_ws adds are not covered: toy_pub does not produce bytes *)
Definition toy_pub (a : list N) : list N := fit 32 a.
Fixpoint toy_add (a b : list N) : list N :=
  match a, b with x :: a', y :: b' => (x + y) mod 256 :: toy_add a' b' | _, _ => [] end.
Definition toy_dh (a b : list N) : option (list N) := Some (toy_add (fit 32 a) (fit 32 b)).
Definition toy_seal (k n p a : list N) : list N := p ++ zeros 16.
Definition toy_open (k n c a : list N) : option (list N) := Some (firstn (length c - 16) c).

Lemma toy_add_comm : forall a b, toy_add a b = toy_add b a.
Proof. induction a; destruct b; cbn [toy_add]; try reflexivity. rewrite IHa, N.add_comm. reflexivity. Qed.
Lemma fit_idem : forall n l, fit n (fit n l) = fit n l.
Proof. intros. apply fit_exact. apply fit_length. Qed.

Example agreement_hypotheses_inhabited :
  (forall a b, toy_dh a (toy_pub b) = toy_dh b (toy_pub a)) /\
  (forall a, length (toy_pub a) = 32%nat) /\
  (forall k n p a, toy_open k n (toy_seal k n p a) a = Some p) /\
  (forall k n p a, length (toy_seal k n p a) = (length p + 16)%nat).
Proof.
  repeat split; intros.
  - unfold toy_dh, toy_pub. rewrite !fit_idem. f_equal. apply toy_add_comm.
  - apply fit_length.
  - unfold toy_open, toy_seal. rewrite app_length, zeros_length.
    rewrite firstn_app_exact by lia. reflexivity.
  - unfold toy_seal. rewrite app_length, zeros_length. reflexivity.
Qed.

(* a concrete skeleton (the shape of a Firefox hello: SNI first, a P-256 share after the X25519 one) *)
Definition ex_name : list N := [119;119;119;46;101;120;97;109;112;108;101;46;99;111;109].
Definition ex_skeleton : skeleton :=
  mkSk [0x13;0x01;0x13;0x03;0x13;0x02;0xc0;0x2b] [0]
       [(0, [0;18;0;0;15] ++ ex_name); (23, []); (10, [0;4;0;29;0;23]); (43, [4;3;4;3;3])]
       [] [(23, repeat 7 65)] [(45, [1;1])].
Example ex_skeleton_wf :
  wf_skeleton ex_skeleton = true /\
  wf_client_hello ex_name (mk_client_hello ex_skeleton (repeat 1 32) (repeat 2 32) (repeat 3 32)) = true.
Proof. split; vm_compute; reflexivity. Qed.
Example ex_info_in_domain : info_in_domain (mkInfo ex_uid [115;115] 1 (2 ^ 32 - 1) true).
Proof. repeat split; cbn; try lia; discriminate. Qed.
