(* C05 - Record framing survives any TCP segmentation and concurrent writers.
   Only the property theorems, each proved in a line or two from the lemmas of Proofs/Record.v and Proofs/WsWriters.v.
   Vocabulary (Model/Record.v, Proofs/Record.v):
     rec_write m       what TLSConn.Write hands to its single underlying Conn.Write (None: refused);
     wire_of ms        the byte stream after the messages ms went through TLSConn.Write in this order;
     chunks            the inbound stream as a list of TCP segments (each underlying Read returns a
                       prefix of the head segment; after the last one: io.EOF);
     tls_read b cs     one TLSConn.Read with a b-byte buffer; tls_reads the caller's read-until-error loop;
     fits b ms         every message of ms is at most b bytes long;
     run_sched qs s    the order in which the Write calls of several writers (queues qs) reach the
                       connection under schedule s; sel i s l = the messages of writer i within l. *)
From Coq Require Import NArith ZArith List.
From Cloak Require Import Gen.Consts Model.Record Proofs.Record Model.WsWriters Proofs.WsWriters.
Import ListNotations.
Local Open Scope N_scope.

(* every message passed to one Write is received by exactly one Read, whole, unaltered, in the
   order sent, for ALL segmentations cs of the byte stream; then end-of-stream.  Messages may be
   empty. *)
Theorem C05_one_write_one_read : forall ms cs buflen fuel,
  fits write_limit ms -> fits buflen ms -> hdr_len <= buflen -> (length ms < fuel)%nat ->
  concat cs = wire_of ms ->
  tls_reads fuel buflen cs = map TrData ms ++ [TrEOF].
Proof. exact one_write_one_read. Qed.
Print Assumptions C05_one_write_one_read.

(* the writer side of the statement: a message within the limit becomes header ++ message in ONE
   underlying write; a longer one is refused and leaves nothing on the wire *)
Theorem C05_write_shape : forall m,
  (nlen m <= write_limit -> rec_write m = Some (header app_data tls13 (nlen m) ++ m))
  /\ (write_limit < nlen m -> rec_write m = None /\ forall ms, wire_of (m :: ms) = wire_of ms).
Proof. intros m. split; [exact (rec_write_frame m)|].
  intros H. split; [exact (rec_write_refuses m H)|]. intros ms. exact (wire_of_refused m ms H). Qed.
Print Assumptions C05_write_shape.

(* any two segmentations of the same byte stream give the same read results (for arbitrary byte
   streams, well-formed or not, any buffer size) *)
Theorem C05_segmentation_irrelevant : forall fuel buflen cs cs', concat cs = concat cs' ->
  tls_reads fuel buflen cs = tls_reads fuel buflen cs'.
Proof. exact segmentation_irrelevant. Qed.
Print Assumptions C05_segmentation_irrelevant.

Theorem C05_segmentation_irrelevant_one : forall buflen cs cs', concat cs = concat cs' ->
  fst (tls_read buflen cs) = fst (tls_read buflen cs')
  /\ concat (snd (tls_read buflen cs)) = concat (snd (tls_read buflen cs')).
Proof. intros buflen cs cs' H. destruct (tls_read_seg buflen _ _ H) as (r & cs1 & cs1' & -> & -> & H1). now split. Qed.
Print Assumptions C05_segmentation_irrelevant_one.

(* a record larger than the reader's buffer is reported as an error; no payload byte is handed
   over as data (the body stays in the stream, the caller's loop stops at the error) *)
Theorem C05_oversize_is_error : forall buflen m rest cs,
  hdr_len <= buflen -> buflen < nlen m -> nlen m <= write_limit ->
  concat cs = header app_data tls13 (nlen m) ++ m ++ rest ->
  fst (tls_read buflen cs) = TrShortBuffer /\ concat (snd (tls_read buflen cs)) = m ++ rest
  /\ forall fuel, tls_reads (S fuel) buflen cs = [TrShortBuffer].
Proof. exact oversize_is_error. Qed.
Print Assumptions C05_oversize_is_error.

Theorem C05_tiny_buffer : forall buflen cs, buflen < hdr_len -> tls_read buflen cs = (TrShortBuffer, cs).
Proof. exact tiny_buffer. Qed.
Print Assumptions C05_tiny_buffer.

(* several writers, each Write one atomic append: for every schedule of the Write calls and every
   segmentation, the reader obtains whole messages forming an interleaving of the writers' message
   sequences that preserves each writer's order *)
Theorem C05_no_interleave : forall (qs : list (list (list N))) sched l qf cs buflen fuel,
  run_sched qs sched = Some (l, qf) ->
  Forall (fits write_limit) qs -> Forall (fits buflen) qs -> hdr_len <= buflen -> (length l < fuel)%nat ->
  concat cs = wire_of l ->
  tls_reads fuel buflen cs = map TrData l ++ [TrEOF]
  /\ forall i, nth i qs [] = sel i sched l ++ nth i qf [].
Proof. exact no_interleave. Qed.
Print Assumptions C05_no_interleave.

(* WebSocket adapter: the Read loop returns the whole binary message, or an error when it does not
   fit or the message reader fails - never a truncated success *)
Theorem C05_ws_whole_or_error : forall buflen ps,
  (forall x, ws_read buflen true ps = WsOk x -> x = ws_message ps /\ nlen x <= buflen /\ all_data ps)
  /\ (all_data ps -> nlen (ws_message ps) <= buflen -> ws_read buflen true ps = WsOk (ws_message ps))
  /\ (buflen < nlen (ws_message ps) -> forall x, ws_read buflen true ps <> WsOk x).
Proof. exact ws_whole_or_error. Qed.
Print Assumptions C05_ws_whole_or_error.

(* obligations about the constants measured in the source on every run *)
Theorem C05_consts :
  write_limit = 16640 /\ write_limit < 65536 /\ hdr_len = 5 /\ app_data = 23 /\ tls13 = 771
  /\ Z.to_N mux_defaultMaxOnWireSize <= write_limit.
Proof. repeat split. exact frame_fits_record. Qed.
Print Assumptions C05_consts.

(* non-vacuity: three messages (one empty) cut into nine segments / into single bytes; end of
   stream inside a body, inside a header, at a record boundary; short buffers *)
Theorem C05_example :
  let ms := [[1;2;3]; []; [4]] in
  let w := wire_of ms in
  fits write_limit ms /\ fits 5 ms
  /\ tls_reads 9 5 (cut_at 0 [1;2;6;7;8;9;13;14;18] w) = [TrData [1;2;3]; TrData []; TrData [4]; TrEOF]
  /\ tls_reads 9 5 (map (fun b => [b]) w) = [TrData [1;2;3]; TrData []; TrData [4]; TrEOF]
  /\ tls_reads 9 5 (cut_at 0 [6] (firstn 7 w)) = [TrUnexpectedEOF 2]
  /\ tls_reads 9 5 [firstn 3 w] = [TrUnexpectedEOF 0]
  /\ tls_reads 9 5 [firstn 13 w] = [TrData [1;2;3]; TrData []; TrEOF]
  /\ tls_reads 9 2 [w] = [TrShortBuffer]
  /\ tls_reads 9 5 [[23;3;3;0;6;1;2;3;4;5;6]] = [TrShortBuffer].
Proof. exact ex_reads. Qed.
Print Assumptions C05_example.

(* WebSocket adapter, WRITE side (Model/WsWriters.v): WebSocketConn.Write = writeM.Lock; WriteMessage;
   writeM.Unlock, where one message is one or more frames (one underlying Write each, FIN on the last).
   wrun n (w_init qs) tr = the writers' threads (queues qs of messages to write) after the
   interleaving tr of their steps (take the mutex / hand one frame to the connection / release);
   lock_order tr = who took the mutex, in order; reasm = the peer's message reader.
   For EVERY interleaving: the messages that took the mutex, in that order, are an order-preserving
   merge of the writers' queues; with no write in progress the peer has received exactly these
   messages, whole, each once, in that order; at any moment it has received a prefix of them lacking
   at most the one being written. *)
Theorem C05_ws_no_interleave : forall n qs tr st, wrun n (w_init qs) tr = Some st ->
  exists l, run_sched qs (lock_order tr) = Some (l, w_queues st)
    /\ (forall i, nth i qs [] = sel i (lock_order tr) l ++ nth i (w_queues st) [])
    /\ (w_lock st = None -> reasm [] (w_wire st) = (l, []))
    /\ exists k, fst (reasm [] (w_wire st)) = firstn k l /\ (length l <= S k)%nat.
Proof. exact ws_no_interleave. Qed.
Print Assumptions C05_ws_no_interleave.

(* ... and each of them is returned by one WebSocketConn.Read whose buffer it fits *)
Theorem C05_ws_reads_whole : forall buflen (l : list (list N)) (pss : list (list piece)),
  Forall2 (fun ps m => all_data ps /\ ws_message ps = m) pss l -> fits buflen l ->
  map (ws_read buflen true) pss = map WsOk l.
Proof. exact ws_reads_whole. Qed.
Print Assumptions C05_ws_reads_whole.

(* the next step of the holder of the write mutex is always enabled: the mutex is never held by a writer that
   cannot go on (nothing is said about scheduling or about the writers that wait) *)
Theorem C05_ws_holder_moves : forall n st j, w_lock st = Some j ->
  (exists st', wstep n st (j, WEmit) = Some st') \/ (exists st', wstep n st (j, WUnlock) = Some st').
Proof. exact ws_holder_moves. Qed.
Print Assumptions C05_ws_holder_moves.

(* what the mutex is for: the same writers without it (ustep: a writer enters WriteMessage at once)
   have a run after which the peer has read two messages neither of which was written *)
Theorem C05_ws_unlocked_refuted :
  exists tr st, urun 1 (u_init [[[1;2;3;4]]; [[9]]]) tr = Some st
    /\ fst (reasm [] (u_wire st)) = [[1;2;9]; [3;4]]
    /\ ~ In [1;2;9] [[1;2;3;4]; [9]].
Proof. exact ws_unlocked_interleaves. Qed.
Print Assumptions C05_ws_unlocked_refuted.

(* non-vacuity: a run of the locked system with both writers and a fragmented message *)
Theorem C05_ws_example :
  exists st, wrun 1 (w_init [[[1;2;3;4]; [5]]; [[9]]])
                 [(0, WLock); (0, WEmit); (0, WEmit); (0, WUnlock); (1, WLock); (1, WEmit); (1, WUnlock);
                  (0, WLock); (0, WEmit); (0, WUnlock)]%nat = Some st
    /\ reasm [] (w_wire st) = ([[1;2;3;4]; [9]; [5]], []) /\ w_lock st = None /\ length (w_wire st) = 4%nat.
Proof. exact ws_example. Qed.
Print Assumptions C05_ws_example.
