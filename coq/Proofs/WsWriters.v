(* Proofs about Model/WsWriters.v: writers of one WebSocketConn serialised by the write mutex deliver
   whole messages, each once, in the order the writes were serialised (C05). *)
From Coq Require Import NArith Arith List Lia Bool.
From Cloak Require Import Model.Record Proofs.ListFacts Proofs.Record Model.WsWriters.
Import ListNotations.

Lemma chunk_nonempty fuel n m : chunk fuel n m <> [].
Proof. destruct fuel; cbn [chunk]; [discriminate|]. destruct (Nat.leb _ _); discriminate. Qed.

Lemma chunk_concat fuel n : forall m, concat (chunk fuel n m) = m.
Proof.
  induction fuel as [|f IH]; intros m; cbn [chunk].
  - cbn. apply app_nil_r.
  - destruct (Nat.leb (length m) (S n)).
    + cbn. apply app_nil_r.
    + cbn [concat]. rewrite IH. apply firstn_skipn.
Qed.

Lemma reasm_mark_last cs : forall acc rest, cs <> [] ->
  reasm acc (mark_last cs ++ rest) = ((acc ++ concat cs) :: fst (reasm [] rest), snd (reasm [] rest)).
Proof.
  induction cs as [|c r IH]; intros acc rest Hne; [contradiction|].
  destruct r as [|c' r'].
  - cbn [mark_last app reasm wf_fin wf_data concat]. rewrite app_nil_r. destruct (reasm [] rest) as [ms p]. reflexivity.
  - change (mark_last (c :: c' :: r')) with ({| wf_fin := false; wf_data := c |} :: mark_last (c' :: r')).
    cbn [app reasm wf_fin wf_data]. rewrite IH by discriminate. cbn [concat]. now rewrite <- app_assoc.
Qed.

Lemma reasm_frag n m acc rest :
  reasm acc (frag n m ++ rest) = ((acc ++ m) :: fst (reasm [] rest), snd (reasm [] rest)).
Proof. unfold frag. rewrite reasm_mark_last by apply chunk_nonempty. now rewrite chunk_concat. Qed.

Lemma reasm_msgs n ms : forall rest,
  reasm [] (concat (map (frag n) ms) ++ rest) = (ms ++ fst (reasm [] rest), snd (reasm [] rest)).
Proof.
  induction ms as [|m r IH]; intros rest; cbn [map concat app].
  - now destruct (reasm [] rest).
  - rewrite <- app_assoc, reasm_frag, IH. reflexivity.
Qed.

Definition nofin (f : wframe) : Prop := wf_fin f = false.

Lemma mark_last_strict_prefix cs : forall e p, e ++ p = mark_last cs -> p <> [] -> Forall nofin e.
Proof.
  induction cs as [|c r IH]; intros e p H Hp.
  - cbn in H. destruct e; [constructor|discriminate].
  - destruct r as [|c' r'].
    + cbn [mark_last] in H. destruct e as [|f e']; [constructor|].
      injection H as _ H. destruct e'; [|discriminate]. cbn in H. subst p. contradiction.
    + change (mark_last (c :: c' :: r')) with ({| wf_fin := false; wf_data := c |} :: mark_last (c' :: r')) in H.
      destruct e as [|f e']; [constructor|]. injection H as Hf H. constructor.
      * subst f. reflexivity.
      * apply (IH e' p H Hp).
Qed.

Lemma reasm_nofin e : forall acc, Forall nofin e -> fst (reasm acc e) = [].
Proof.
  induction e as [|f r IH]; intros acc H; [reflexivity|]. inversion H as [|? ? Hf Hr]; subst.
  cbn [reasm]. unfold nofin in Hf. rewrite Hf. now apply IH.
Qed.

Lemma run_sched_snoc {A} sched : forall (qs : list (list A)) l qf i x qf',
  run_sched qs sched = Some (l, qf) -> pop_nth i qf = Some (x, qf') ->
  run_sched qs (sched ++ [i]) = Some (l ++ [x], qf').
Proof.
  induction sched as [|j t IH]; intros qs l qf i x qf' H Hp; cbn [run_sched app] in *.
  - injection H as <- <-. rewrite Hp. reflexivity.
  - destruct (pop_nth j qs) as [[y qs']|]; [|discriminate].
    destruct (run_sched qs' t) as [[l' qf'']|] eqn:Er; [|discriminate]. injection H as <- <-.
    rewrite (IH _ _ _ _ _ _ Er Hp). reflexivity.
Qed.

Lemma lock_order_app a b : lock_order (a ++ b) = lock_order a ++ lock_order b.
Proof.
  induction a as [|[i x] t IH]; [reflexivity|]. cbn [app lock_order]. destruct x; cbn [app]; now rewrite IH.
Qed.

(* The invariant behind C05_ws_no_interleave.  [sched] is the order in which the lock has been taken so far;
   [done] are the messages completely on the wire, [cur] the at most one message of the present holder of the
   mutex, [emitted] the frames of that message already written: the wire is the fragments of [done] followed
   by [emitted], and what the holder still has pending completes the fragments of its message. *)
Definition WInv (n : nat) (qs : list (list (list N))) (sched : list nat) (st : wstate) : Prop :=
  exists done cur emitted,
    run_sched qs sched = Some (done ++ cur, w_queues st)
    /\ w_wire st = concat (map (frag n) done) ++ emitted
    /\ match w_lock st with
       | None => cur = [] /\ emitted = [] /\ w_pending st = []
       | Some _ => exists m, cur = [m] /\ emitted ++ w_pending st = frag n m
       end.

Lemma WInv_init n qs : WInv n qs [] (w_init qs).
Proof. exists [], [], []. cbn. repeat split. Qed.

Lemma WInv_step n qs sched st i a st' : WInv n qs sched st -> wstep n st (i, a) = Some st' ->
  WInv n qs (sched ++ lock_order [(i, a)]) st'.
Proof.
  intros (done & cur & em & Hr & Hw & Hl) Hs. unfold wstep in Hs. destruct a.
  - (* WLock *)
    destruct (w_lock st) as [j|] eqn:El; [discriminate|]. destruct Hl as (-> & -> & Hp).
    destruct (pop_nth i (w_queues st)) as [[m qs']|] eqn:Ep; [|discriminate]. injection Hs as <-.
    exists done, [m], []. cbn [w_lock w_queues w_pending w_wire lock_order]. rewrite app_nil_r in Hr.
    split; [exact (run_sched_snoc _ _ _ _ _ _ _ Hr Ep)|]. split; [exact Hw|]. exists m. split; reflexivity.
  - (* WEmit *)
    destruct (w_lock st) as [j|] eqn:El; [|discriminate]. destruct (w_pending st) as [|f r] eqn:Epd; [discriminate|].
    destruct (Nat.eqb i j); [|discriminate]. injection Hs as <-. destruct Hl as (m & -> & Hf).
    exists done, [m], (em ++ [f]). cbn [w_lock w_queues w_pending w_wire lock_order]. rewrite app_nil_r.
    split; [exact Hr|]. split; [rewrite Hw; now rewrite app_assoc|]. exists m. split; [reflexivity|].
    rewrite <- app_assoc. exact Hf.
  - (* WUnlock *)
    destruct (w_lock st) as [j|] eqn:El; [|discriminate]. destruct (w_pending st) as [|f r] eqn:Epd; [|discriminate].
    destruct (Nat.eqb i j); [|discriminate]. injection Hs as <-. destruct Hl as (m & -> & Hf).
    rewrite app_nil_r in Hf. subst em.
    exists (done ++ [m]), [], []. cbn [w_lock w_queues w_pending w_wire lock_order]. rewrite !app_nil_r.
    split; [exact Hr|]. split; [|repeat split].
    rewrite Hw, map_app, concat_app. cbn [map concat]. now rewrite app_nil_r.
Qed.

Lemma WInv_run n qs tr : forall sched st st', WInv n qs sched st -> wrun n st tr = Some st' ->
  WInv n qs (sched ++ lock_order tr) st'.
Proof.
  induction tr as [|[i a] t IH]; intros sched st st' HI Hr; cbn [wrun] in Hr.
  - injection Hr as <-. cbn. now rewrite app_nil_r.
  - destruct (wstep n st (i, a)) as [st1|] eqn:Es; [|discriminate].
    pose proof (WInv_step _ _ _ _ _ _ _ HI Es) as H1. pose proof (IH _ _ _ H1 Hr) as H2.
    change ((i, a) :: t) with ([(i, a)] ++ t). rewrite lock_order_app, app_assoc. exact H2.
Qed.

(* For every number of writers, every queue of messages per writer, every write-buffer size and
   EVERY interleaving of the writers' steps: the messages that took the mutex, in that order (l),
   are an order-preserving merge of the writers' queues; the peer's message reader gets exactly l
   when no write is in progress, and at any moment a prefix of l missing at most the message being
   written - never a message that nobody wrote, never one twice, never two mixed. *)
Lemma ws_no_interleave n qs tr st : wrun n (w_init qs) tr = Some st ->
  exists l, run_sched qs (lock_order tr) = Some (l, w_queues st)
    /\ (forall i, nth i qs [] = sel i (lock_order tr) l ++ nth i (w_queues st) [])
    /\ (w_lock st = None -> reasm [] (w_wire st) = (l, []))
    /\ exists k, fst (reasm [] (w_wire st)) = firstn k l /\ (length l <= S k)%nat.
Proof.
  intros Hr. destruct (WInv_run _ _ _ _ _ _ (WInv_init n qs) Hr) as (done & cur & em & Hs & Hw & Hl).
  cbn [app] in Hs. exists (done ++ cur). split; [exact Hs|].
  split; [exact (proj2 (proj2 (run_sched_spec _ _ _ _ Hs)))|].
  (* the finished messages, then whatever the frames of the current one amount to so far *)
  rewrite Hw, reasm_msgs. destruct (w_lock st) as [j|].
  - destruct Hl as (m & -> & Hf). split; [discriminate|]. destruct (w_pending st) as [|f r].
    + rewrite app_nil_r in Hf. subst em. rewrite <- (app_nil_r (frag n m)), reasm_frag.
      exists (length (done ++ [m])). rewrite firstn_all. split; [reflexivity|lia].
    + rewrite reasm_nofin by (apply (mark_last_strict_prefix _ _ (f :: r) Hf); discriminate).
      exists (length done). rewrite firstn_app_exact, app_length by reflexivity. cbn. rewrite app_nil_r. split; [reflexivity|lia].
  - destruct Hl as (-> & -> & _). cbn [reasm fst snd]. rewrite !app_nil_r. split; [reflexivity|].
    exists (length done). rewrite firstn_all. split; [reflexivity|lia].
Qed.

(* the next step of the holder of the mutex is always enabled (nothing is said about scheduling) *)
Lemma ws_holder_moves n st j : w_lock st = Some j ->
  (exists st', wstep n st (j, WEmit) = Some st') \/ (exists st', wstep n st (j, WUnlock) = Some st').
Proof.
  intros El. unfold wstep. rewrite El, Nat.eqb_refl. destruct (w_pending st); [right|left]; eexists; reflexivity.
Qed.

(* and the reader side (C05_ws_whole_or_error) turns each of these messages into one successful Read *)
Lemma ws_reads_whole buflen : forall (l : list (list N)) (pss : list (list piece)),
  Forall2 (fun ps m => all_data ps /\ ws_message ps = m) pss l -> fits buflen l ->
  map (ws_read buflen true) pss = map WsOk l.
Proof.
  intros l pss H. induction H as [|ps m pss' l' (Ha & Hm) _ IH]; intros Hf; [reflexivity|].
  inversion Hf as [|? ? Hm1 Hf1]; subst. cbn [map]. rewrite IH by exact Hf1. f_equal.
  apply (proj1 (proj2 (ws_whole_or_error buflen ps)) Ha). exact Hm1.
Qed.

Definition u_init (qs : list (list (list N))) : ustate :=
  {| u_queues := qs; u_pending := map (fun _ => []) qs; u_wire := [] |}.

(* two writers, a 4-byte and a 1-byte message, write buffer of 2 bytes: the second writer's frame
   lands between the two frames of the first; the peer reads [1;2;9] and [3;4] - neither was written *)
Lemma ws_unlocked_interleaves :
  exists tr st, urun 1 (u_init [[[1;2;3;4]]; [[9]]]%N) tr = Some st
    /\ fst (reasm [] (u_wire st)) = [[1;2;9]; [3;4]]%N
    /\ ~ In [1;2;9]%N [[1;2;3;4]; [9]]%N.
Proof.
  exists [(0, WLock); (0, WEmit); (1, WLock); (1, WEmit); (0, WEmit)]%nat. eexists. split; [lazy; reflexivity|].
  split; [reflexivity|]. intros [H|[H|[]]]; discriminate.
Qed.

(* the same trace is not a run of the system with the mutex: the second writer is not enabled *)
Lemma ws_locked_refuses_that_trace :
  wrun 1 (w_init [[[1;2;3;4]]; [[9]]]%N) [(0, WLock); (0, WEmit); (1, WLock)]%nat = None.
Proof. reflexivity. Qed.

(* non-vacuity of ws_no_interleave: a run with both writers, fragmentation included *)
Lemma ws_example :
  exists st, wrun 1 (w_init [[[1;2;3;4]; [5]]; [[9]]]%N)
                 [(0, WLock); (0, WEmit); (0, WEmit); (0, WUnlock); (1, WLock); (1, WEmit); (1, WUnlock);
                  (0, WLock); (0, WEmit); (0, WUnlock)]%nat = Some st
    /\ reasm [] (w_wire st) = ([[1;2;3;4]; [9]; [5]]%N, []) /\ w_lock st = None /\ length (w_wire st) = 4%nat.
Proof. eexists. split; [lazy; reflexivity|]. repeat split. Qed.
