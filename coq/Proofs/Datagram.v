(* Proofs about Model/Datagram.v : datagram boundaries and stream isolation (C14).
   A pipe state is read as the queue of whole datagrams it holds ([rep]); each operation adds at the back
   what it stores and removes at the front what it returns ([step_rep]).  A session event touches the
   pipe of one stream ([update_inv]), so the same equation holds per stream ([sstep_inv]). *)
From Coq Require Import NArith ZArith List Lia Bool.
From Coq Require Import ZifyN ZifyNat ZifyBool.
From Cloak Require Import Gen.Consts Model.Datagram Proofs.ListFacts.
Import ListNotations.

(* facts about the constants of Gen/Consts.v, which are read from the source on every run *)
Lemma max_unit_16401 : max_unit 16401 = mux_maxStreamUnitWrite_16401.
Proof. reflexivity. Qed.
Lemma max_unit_default : max_unit mux_default_MsgOnWireSizeLimit = mux_default_maxStreamUnitWrite.
Proof. reflexivity. Qed.
Lemma max_unit_positive_16401 : (0 < max_unit 16401)%Z.
Proof. reflexivity. Qed.
(* a frame carrying a maximal datagram, with header and maximal padding+tag, fits the limit *)
Lemma max_unit_fits : forall l, (max_unit l + mux_frameHeaderLength + mux_maxExtraLen <= l)%Z.
Proof. intros l. unfold max_unit. lia. Qed.
Lemma buf_limit_val : buf_limit = 2147483647%N.
Proof. reflexivity. Qed.

(* representation: the pipe holds the queue [pend] of whole datagrams *)
Definition rep (d : dg) (pend : list (list N)) : Prop :=
  lens d = map (@length N) pend /\ buf d = concat pend.

Lemma split_by_rep pend : split_by (map (@length N) pend) (concat pend) = pend.
Proof. induction pend as [|x r IH]; cbn [map concat split_by]; [reflexivity|].
  now rewrite firstn_app_exact, skipn_app_exact, IH by reflexivity. Qed.

Lemma rep_pending d pend : rep d pend -> pending d = pend.
Proof. intros [Hl Hb]. unfold pending. rewrite Hl, Hb. apply split_by_rep. Qed.

Lemma length_concat_sum (pend : list (list N)) :
  length (concat pend) = list_sum (map (@length N) pend).
Proof. induction pend as [|x r IH]; cbn [concat map list_sum]; [reflexivity|].
  now rewrite app_length, IH. Qed.

Lemma rep_inv d pend : rep d pend -> list_sum (lens d) = length (buf d).
Proof. intros [Hl Hb]. rewrite Hl, Hb. symmetry. apply length_concat_sum. Qed.

Lemma rep_init : rep dg_init [].
Proof. split; reflexivity. Qed.

Lemma rep_ext d pend : rep d pend -> d = mkD (map (@length N) pend) (concat pend) (closed d).
Proof. intros [Hl Hb]. destruct d as [l b c]. cbn in *. now subst. Qed.

Lemma write_rep d pend c p d' r : rep d pend -> dg_write d c p = (d', r) ->
  match r with
  | WrStored => rep d' (pend ++ [p]) /\ closed d' = false
  | WrClosing => rep d' pend /\ closed d' = true
  | WrClosedPipe | WrWouldBlock => d' = d
  end.
Proof.
  intros [Hl Hb] H. unfold dg_write in H.
  destruct (closed d). { now injection H as <- <-. }
  destruct (negb _). { now injection H as <- <-. }
  destruct c; injection H as <- <-.
  - repeat split; assumption.
  - repeat split; cbn [lens buf].
    + rewrite Hl, map_app. reflexivity.
    + rewrite Hb, concat_app. cbn. now rewrite app_nil_r.
Qed.

Lemma write_closed d c p : closed d = true -> dg_write d c p = (d, WrClosedPipe).
Proof. intros Hc. unfold dg_write. now rewrite Hc. Qed.

(* an open pipe below recvBufferSizeLimit takes every frame; a closing frame acts as Close() *)
Lemma write_open d c p :
  closed d = false -> (N.of_nat (length (buf d)) <= buf_limit)%N ->
  dg_write d c p = if c then (dg_close d, WrClosing)
                   else (mkD (lens d ++ [length p]) (buf d ++ p) false, WrStored).
Proof. intros Hc Hl. unfold dg_write. rewrite Hc.
  destruct (N.leb_spec (N.of_nat (length (buf d))) buf_limit); [reflexivity|lia]. Qed.

Lemma read_rep d pend k :
  rep d pend ->
  match pend with
  | [] => dg_read d k = (d, if closed d then RdEOF else RdEmpty)
  | x :: rest =>
      if Nat.ltb k (length x) then dg_read d k = (d, RdShort)
      else exists d', dg_read d k = (d', RdData x) /\ rep d' rest /\ closed d' = closed d
  end.
Proof.
  intros [Hl Hb]. unfold dg_read. destruct pend as [|x rest]; cbn [map concat] in *.
  - rewrite Hl. reflexivity.
  - rewrite Hl. destruct (Nat.ltb k (length x)); [reflexivity|].
    rewrite Hb, firstn_app_exact, skipn_app_exact by reflexivity.
    eexists. split; [reflexivity|]. repeat split; reflexivity.
Qed.

Lemma close_rep d pend : rep d pend -> rep (dg_close d) pend.
Proof. intros [Hl Hb]. split; assumption. Qed.

Lemma short_read_state_unchanged d k : snd (dg_read d k) = RdShort -> fst (dg_read d k) = d.
Proof. unfold dg_read. destruct (lens d) as [|n r]; [reflexivity|].
  destruct (Nat.ltb k n); [reflexivity|]. cbn. discriminate. Qed.

Lemma read_short_iff d k n r : lens d = n :: r ->
  (k < n -> dg_read d k = (d, RdShort)) /\ (n <= k -> snd (dg_read d k) <> RdShort).
Proof. intros H. unfold dg_read. rewrite H. split; intros Hk.
  - destruct (Nat.ltb_spec k n); [reflexivity|lia].
  - destruct (Nat.ltb_spec k n); [lia|]. cbn. discriminate. Qed.

(* ghost projections of a run: the datagrams the pipe accepted, the datagrams reads returned *)
Fixpoint accepted (es : list ev) (os : list obs) : list (list N) :=
  match es, os with
  | Wr _ p :: es', OWr WrStored :: os' => p :: accepted es' os'
  | _ :: es', _ :: os' => accepted es' os'
  | _, _ => []
  end.

Fixpoint delivered (os : list obs) : list (list N) :=
  match os with
  | ORd (RdData x) :: t => x :: delivered t
  | _ :: t => delivered t
  | [] => []
  end.

Lemma delivered_app a b : delivered (a ++ b) = delivered a ++ delivered b.
Proof. induction a as [|o a IHa]; cbn [app delivered]; [reflexivity|].
  destruct o as [|r|]; try apply IHa. destruct r; try apply IHa. cbn [app]. now rewrite IHa. Qed.
Lemma delivered_map_data pend : delivered (map (fun x => ORd (RdData x)) pend) = pend.
Proof. induction pend as [|x r IHr]; cbn [map delivered]; [reflexivity|]. now rewrite IHr. Qed.

Lemma steps_app d es1 es2 :
  steps d (es1 ++ es2) =
  let '(d1, os1) := steps d es1 in let '(d2, os2) := steps d1 es2 in (d2, os1 ++ os2).
Proof. revert d. induction es1 as [|e es1 IH]; intros d; cbn [app steps].
  - destruct (steps d es2). reflexivity.
  - destruct (step d e) as [d1 o]. rewrite IH. destruct (steps d1 es1) as [d2 os1].
    destruct (steps d2 es2). reflexivity. Qed.

Lemma steps_length d es : length (snd (steps d es)) = length es.
Proof. revert d; induction es as [|e es IH]; intros d; cbn [steps]; [reflexivity|].
  destruct (step d e) as [d1 o]. specialize (IH d1). destruct (steps d1 es). cbn in *. now rewrite IH. Qed.

(* a read takes what it returns off the front of the queue and nothing else *)
Lemma read_step d pend k d' r : rep d pend -> dg_read d k = (d', r) ->
  exists pend', rep d' pend' /\ pend = delivered [ORd r] ++ pend' /\ closed d' = closed d.
Proof.
  intros Hr H. pose proof (read_rep d pend k Hr) as Hrd. rewrite H in Hrd.
  destruct pend as [|x rest].
  - injection Hrd as -> ->. exists []. now destruct (closed d).
  - destruct (Nat.ltb k (length x)).
    + injection Hrd as -> ->. now exists (x :: rest).
    + destruct Hrd as (d1 & [= -> ->] & Hr1 & Hc). now exists rest.
Qed.

Lemma accepted_cons e es o os : accepted (e :: es) (o :: os) = accepted [e] [o] ++ accepted es os.
Proof. destruct e as [c p|k|], o as [[]|r|]; reflexivity. Qed.

(* one operation: what it stores joins the queue at the back, what it returns leaves at the front *)
Lemma step_rep d pend e d' o : rep d pend -> step d e = (d', o) ->
  exists pend', rep d' pend' /\ pend ++ accepted [e] [o] = delivered [o] ++ pend'.
Proof.
  intros Hr H. destruct e as [c p|k|]; cbn [step] in H.
  - destruct (dg_write d c p) as [dw r] eqn:Ew. injection H as <- <-.
    pose proof (write_rep _ _ _ _ _ _ Hr Ew) as Hw.
    destruct r; cbn [accepted delivered app].
    + exists (pend ++ [p]). split; [apply Hw|reflexivity].
    + exists pend. split; [apply Hw|apply app_nil_r].
    + exists pend. subst dw. split; [exact Hr|apply app_nil_r].
    + exists pend. subst dw. split; [exact Hr|apply app_nil_r].
  - destruct (dg_read d k) as [dr r] eqn:Erd. injection H as <- <-.
    destruct (read_step _ _ _ _ _ Hr Erd) as (pend' & Hr' & Heq & _).
    exists pend'. split; [exact Hr'|]. cbn [accepted]. now rewrite app_nil_r.
  - injection H as <- <-. exists pend. split; [now apply close_rep|apply app_nil_r].
Qed.

Lemma steps_rep es : forall d pend d' os, rep d pend -> steps d es = (d', os) ->
  exists pend', rep d' pend' /\ pend ++ accepted es os = delivered os ++ pend'.
Proof.
  induction es as [|e es IH]; intros d pend d' os Hr Hs; cbn [steps] in Hs.
  - injection Hs as <- <-. exists pend. split; [assumption|apply app_nil_r].
  - destruct (step d e) as [d1 o] eqn:Est. destruct (steps d1 es) as [d2 os'] eqn:Ess. injection Hs as <- <-.
    destruct (step_rep _ _ _ _ _ Hr Est) as (p1 & Hr1 & H1). destruct (IH _ _ _ _ Hr1 Ess) as (p2 & Hr2 & H2).
    exists p2. split; [assumption|].
    change (delivered (o :: os')) with (delivered ([o] ++ os')).
    rewrite accepted_cons, delivered_app, app_assoc, H1, <- app_assoc, H2. apply app_assoc.
Qed.

Definition reachable (d : dg) : Prop := exists es os, steps dg_init es = (d, os).

Lemma reachable_rep d : reachable d -> rep d (pending d).
Proof. intros (es & os & H). destruct (steps_rep es _ _ _ _ rep_init H) as (pend' & Hr & _).
  now rewrite (rep_pending _ _ Hr). Qed.

Lemma boundaries es d os : steps dg_init es = (d, os) ->
  accepted es os = delivered os ++ pending d
  /\ lens d = map (@length N) (pending d) /\ buf d = concat (pending d).
Proof. intros H. destruct (steps_rep es _ _ _ _ rep_init H) as (pend' & Hr & Heq).
  rewrite (rep_pending _ _ Hr). cbn [app] in Heq. split; [exact Heq|exact Hr]. Qed.

Lemma read_outcomes d k : reachable d ->
  match pending d with
  | [] => dg_read d k = (d, if closed d then RdEOF else RdEmpty)
  | x :: rest =>
      if Nat.ltb k (length x) then dg_read d k = (d, RdShort)
      else exists d', dg_read d k = (d', RdData x) /\ pending d' = rest /\ closed d' = closed d
           /\ reachable d'
  end.
Proof.
  intros Hre. pose proof (read_rep d _ k (reachable_rep _ Hre)) as H.
  destruct (pending d) as [|x rest]; [exact H|].
  destruct (Nat.ltb k (length x)); [exact H|].
  destruct H as (d' & Hd & Hr & Hc). exists d'. repeat split; try assumption.
  - exact (rep_pending _ _ Hr).
  - destruct Hre as (es & os & Hs). exists (es ++ [Rd k]), (os ++ [ORd (RdData x)]).
    rewrite steps_app, Hs. cbn [steps step]. rewrite Hd. reflexivity.
Qed.

(* a read with a too-small buffer: error, state unchanged, and the same datagram is still the
   next one - a following read with enough room returns it whole *)
Lemma short_read_noop d k x rest : reachable d -> pending d = x :: rest -> k < length x ->
  dg_read d k = (d, RdShort)
  /\ forall k', length x <= k' -> exists d', dg_read d k' = (d', RdData x) /\ pending d' = rest.
Proof.
  intros Hre Hp Hk. split.
  - pose proof (read_outcomes d k Hre) as H. rewrite Hp in H.
    destruct (Nat.ltb_spec k (length x)); [exact H|lia].
  - intros k' Hk'. pose proof (read_outcomes d k' Hre) as H. rewrite Hp in H.
    destruct (Nat.ltb_spec k' (length x)); [lia|]. destruct H as (d' & H1 & H2 & _). now exists d'.
Qed.

Lemma drain_rep pend : forall d ks, rep d pend -> Forall2 (fun k x => length x <= k) ks pend ->
  exists d', steps d (map Rd ks) = (d', map (fun x => ORd (RdData x)) pend)
             /\ rep d' [] /\ closed d' = closed d.
Proof.
  induction pend as [|x rest IH]; intros d ks Hr Hf; inversion Hf; subst.
  - exists d. cbn. repeat split; try apply Hr.
  - rename x0 into k. cbn [map steps step].
    pose proof (read_rep d _ k Hr) as H. cbn beta iota in H.
    destruct (Nat.ltb_spec k (length x)); [lia|].
    destruct H as (d1 & Hd & Hr1 & Hc). rewrite Hd.
    destruct (IH d1 l Hr1 H3) as (d' & Hs & Hr' & Hc'). exists d'. rewrite Hs.
    repeat split; try apply Hr'. congruence.
Qed.

Fixpoint written (es : list ev) : list (list N) :=
  match es with
  | Wr _ p :: t => p :: written t
  | _ :: t => written t
  | [] => []
  end.
Definition data_only (es : list ev) : Prop :=
  Forall (fun e => match e with Wr c _ => c = false | Rd _ => True | Cl => False end) es.
Definition total_bytes (es : list ev) : nat := list_sum (map (@length N) (written es)).

Lemma total_bytes_wr c p es : total_bytes (Wr c p :: es) = length p + total_bytes es.
Proof. reflexivity. Qed.
Lemma total_bytes_rd k es : total_bytes (Rd k :: es) = total_bytes es.
Proof. reflexivity. Qed.

(* a read leaves the pipe as open or closed as it was and never grows the buffer *)
Lemma read_shrinks d k :
  closed (fst (dg_read d k)) = closed d /\ length (buf (fst (dg_read d k))) <= length (buf d).
Proof. unfold dg_read. destruct (lens d) as [|n r]; [now split|].
  destruct (Nat.ltb k n); cbn [fst closed buf]; [now split|]. rewrite skipn_length. lia. Qed.

Lemma all_accepted es : forall d d' os,
  closed d = false -> data_only es ->
  (N.of_nat (length (buf d) + total_bytes es) <= buf_limit)%N ->
  steps d es = (d', os) ->
  accepted es os = written es /\ closed d' = false.
Proof.
  induction es as [|e es IH]; intros d d' os Hc Hdo Hlim Hs; cbn [steps] in Hs.
  - injection Hs as <- <-. now split.
  - inversion Hdo as [|? ? He Hdo']; subst.
    destruct e as [c p|k|]; cbn [step] in Hs; [subst c| |destruct He].
    + rewrite total_bytes_wr in Hlim.
      rewrite (write_open d false p Hc) in Hs by lia.
      destruct (steps _ es) as [d2 os'] eqn:Ess. injection Hs as <- <-.
      apply IH in Ess as [Ha Hc2]; [|reflexivity|exact Hdo'|cbn [buf]; rewrite app_length; lia].
      cbn [accepted written]. now rewrite Ha.
    + destruct (read_shrinks d k) as [Hcr Hlr]. destruct (dg_read d k) as [dr r]. cbn [fst] in *.
      destruct (steps dr es) as [d2 os'] eqn:Ess. injection Hs as <- <-.
      rewrite total_bytes_rd in Hlim.
      exact (IH dr _ _ (eq_trans Hcr Hc) Hdo' ltac:(lia) Ess).
Qed.

(* writes d_1..d_m interleaved with arbitrary reads, then reads with enough room: every
   datagram comes out exactly once, whole, in arrival order *)
Lemma exactly_once es ks d os :
  data_only es -> (N.of_nat (total_bytes es) <= buf_limit)%N ->
  steps dg_init es = (d, os) ->
  Forall2 (fun k x => length x <= k) ks (pending d) ->
  exists d' os', steps dg_init (es ++ map Rd ks) = (d', os ++ os')
    /\ delivered (os ++ os') = written es /\ lens d' = [] /\ buf d' = [].
Proof.
  intros Hdo Hlim Hs Hf.
  destruct (all_accepted es dg_init d os eq_refl Hdo) as [Ha _]; [exact Hlim|exact Hs|].
  destruct (boundaries es d os Hs) as (Hb & _).
  assert (Hre : reachable d) by (now exists es, os).
  destruct (drain_rep _ _ ks (reachable_rep _ Hre) Hf) as (d' & Hs' & [Hl Hbf] & _).
  exists d', (map (fun x => ORd (RdData x)) (pending d)). rewrite steps_app, Hs, Hs'.
  repeat split; try assumption.
  rewrite <- Ha, Hb.
  rewrite delivered_app. f_equal. apply delivered_map_data.
Qed.

(* reads with enough room on a closed pipe: the pending datagrams, then end-of-stream *)
Lemma drain_eof pend d ks k : rep d pend -> closed d = true ->
  Forall2 (fun k x => length x <= k) ks pend ->
  exists d', steps d (map Rd ks ++ [Rd k]) = (d', map (fun x => ORd (RdData x)) pend ++ [ORd RdEOF])
             /\ closed d' = true.
Proof.
  intros Hr Hc Hf. destruct (drain_rep _ _ ks Hr Hf) as (d' & Hs & Hr' & Hc'). exists d'.
  rewrite steps_app, Hs. cbn [steps step]. rewrite (read_rep d' [] k Hr'), Hc', Hc. now split.
Qed.

(* a closing frame keeps the datagrams written before it readable; after them end-of-stream;
   nothing is accepted afterwards *)
Lemma closing_semantics d p ks k : reachable d -> closed d = false ->
  (N.of_nat (length (buf d)) <= buf_limit)%N ->
  Forall2 (fun k x => length x <= k) ks (pending d) ->
  exists d1 d2,
    dg_write d true p = (d1, WrClosing) /\ pending d1 = pending d /\ closed d1 = true
    /\ steps d1 (map Rd ks ++ [Rd k]) = (d2, map (fun x => ORd (RdData x)) (pending d) ++ [ORd RdEOF])
    /\ (forall c q, dg_write d2 c q = (d2, WrClosedPipe))
    /\ (forall c q, dg_write d1 c q = (d1, WrClosedPipe)).
Proof.
  intros Hre Hc Hl Hf. rewrite (write_open d true p Hc Hl).
  destruct (drain_eof _ _ ks k (close_rep _ _ (reachable_rep _ Hre)) eq_refl Hf) as (d2 & Hs & Hc2).
  exists (dg_close d), d2. repeat split; try exact Hs; intros c q; now apply write_closed.
Qed.

(* Close() by the local side has the same effect on the reader *)
Lemma local_close_semantics d ks k : reachable d ->
  Forall2 (fun k x => length x <= k) ks (pending d) ->
  exists d2, steps (dg_close d) (map Rd ks ++ [Rd k])
             = (d2, map (fun x => ORd (RdData x)) (pending d) ++ [ORd RdEOF]).
Proof.
  intros Hre Hf.
  destruct (drain_eof _ _ ks k (close_rep _ _ (reachable_rep _ Hre)) eq_refl Hf) as (d2 & Hs & _).
  now exists d2.
Qed.

(* Stream.Write in unordered mode *)
Lemma oversize_refused maxu inp : (Z.of_nat (length inp) > maxu)%Z -> (0 <= maxu)%Z ->
  usw_write maxu false inp = (0%Z, SwShortBuffer, []).
Proof. intros H H0. unfold usw_write. destruct inp as [|a t]; [cbn in H; lia|].
  destruct (Z.leb_spec (Z.of_nat (length (a :: t))) maxu); [lia|reflexivity]. Qed.

Lemma fitting_one_frame maxu inp : (0 < Z.of_nat (length inp) <= maxu)%Z ->
  usw_write maxu false inp = (Z.of_nat (length inp), SwNil, [inp]).
Proof. intros H. unfold usw_write. destruct inp as [|a t]; [cbn in H; lia|].
  destruct (Z.leb_spec (Z.of_nat (length (a :: t))) maxu); [reflexivity|lia]. Qed.

(* whatever the outcome: the frames put on the wire are either none or exactly the input *)
Lemma usw_never_splits maxu c inp n e fs : usw_write maxu c inp = (n, e, fs) ->
  (fs = [] /\ n = 0%Z) \/ (fs = [inp] /\ n = Z.of_nat (length inp) /\ e = SwNil).
Proof. unfold usw_write. destruct c; [intros [= <- <- <-]; now left|].
  destruct inp as [|a t]; [intros [= <- <- <-]; now left|].
  destruct (Z.leb _ _); intros [= <- <- <-]; [right|left]; auto. Qed.

(* the UDP relays around the Stream interface (design finding F15) *)
(* uplink, any buffer size: whole up to min(buffer, frame maximum) ... *)
Lemma relay_up_whole bufsize maxu d :
  (0 < N.of_nat (length d) <= bufsize)%N -> (Z.of_nat (length d) <= maxu)%Z ->
  relay_up bufsize maxu d = (Z.of_nat (length d), SwNil, [d]).
Proof. intros Hb Hm. unfold relay_up. rewrite firstn_all2 by lia. apply fitting_one_frame. lia. Qed.

(* ... above a buffer that is not larger than a frame: exactly the first [bufsize] bytes go out as if
   they were the datagram (what the code did before e32244c for 8193..16132 bytes) ... *)
Lemma relay_up_cut bufsize maxu d : (0 < bufsize)%N -> (Z.of_N bufsize <= maxu)%Z ->
  (bufsize < N.of_nat (length d))%N ->
  relay_up bufsize maxu d = (Z.of_N bufsize, SwNil, [firstn (N.to_nat bufsize) d]).
Proof.
  intros H0 Hm Hd. unfold relay_up.
  assert (Hl : length (firstn (N.to_nat bufsize) d) = N.to_nat bufsize) by (rewrite firstn_length; lia).
  rewrite fitting_one_frame; rewrite Hl; [f_equal; f_equal; lia|lia].
Qed.

(* ... and with a buffer larger than a frame, a datagram above the frame maximum is refused *)
Lemma relay_up_refuses bufsize maxu d : (0 <= maxu)%Z -> (maxu < Z.of_N bufsize)%Z ->
  (maxu < Z.of_nat (length d))%Z ->
  relay_up bufsize maxu d = (0%Z, SwShortBuffer, []).
Proof.
  intros H0 Hb Hd. unfold relay_up. apply oversize_refused; [|exact H0].
  rewrite firstn_length. lia.
Qed.

Lemma max_unit_lt_relay_buf : (0 <= max_unit 16401 < Z.of_N relay_buf)%Z.
Proof. vm_compute. split; [discriminate|reflexivity]. Qed.
Lemma relay_buf_prefix_le_max_unit : (Z.of_N relay_buf_prefix <= max_unit 16401)%Z.
Proof. vm_compute. discriminate. Qed.

(* the property at the client relay, current code: every datagram that fits one frame is forwarded
   whole, a larger one is refused *)
Lemma relay_full d :
  ((0 < Z.of_nat (length d) <= max_unit 16401)%Z ->
     route_udp_up (max_unit 16401) d = (Z.of_nat (length d), SwNil, [d]))
  /\ ((max_unit 16401 < Z.of_nat (length d))%Z ->
     route_udp_up (max_unit 16401) d = (0%Z, SwShortBuffer, [])).
Proof.
  pose proof max_unit_lt_relay_buf as Hm. split; intros Hd.
  - apply relay_up_whole; lia.
  - apply relay_up_refuses; lia.
Qed.

(* the first half of relay_full (forwarded whole) was false of the code before the fix (8192-byte buffer) *)
Lemma relay_before_fix_refuted : ~ forall d,
  (0 < Z.of_nat (length d) <= max_unit 16401)%Z ->
  relay_up relay_buf_prefix (max_unit 16401) d = (Z.of_nat (length d), SwNil, [d]).
Proof.
  intros H. specialize (H (repeat 7%N (N.to_nat 8193))).
  rewrite relay_up_cut, repeat_length in H;
    [|reflexivity|exact relay_buf_prefix_le_max_unit|rewrite repeat_length; reflexivity].
  assert (Hl : (0 < Z.of_nat (N.to_nat 8193) <= max_unit 16401)%Z) by (vm_compute; split; [reflexivity|discriminate]).
  apply H, (f_equal (fun t => fst (fst t))) in Hl. vm_compute in Hl. discriminate Hl.
Qed.

(* downlink: with room for the pending datagram the relay forwards it whole *)
Lemma relay_down_whole bufsize p x rest : reachable p -> pending p = x :: rest ->
  (N.of_nat (length x) <= bufsize)%N ->
  exists p', relay_down bufsize p = (p', Some x) /\ pending p' = rest.
Proof.
  intros Hre Hp Hx. pose proof (read_outcomes p (N.to_nat bufsize) Hre) as H. rewrite Hp in H.
  destruct (Nat.ltb_spec (N.to_nat bufsize) (length x)); [lia|].
  destruct H as (p' & Hr & Hp' & _). exists p'. unfold relay_down. rewrite Hr. now split.
Qed.

Lemma reachable_steps es : reachable (fst (steps dg_init es)).
Proof. exists es, (snd (steps dg_init es)). now destruct (steps dg_init es). Qed.

(* with a buffer shorter than the datagram that is pending, stream.Read fails and the relay goroutine ends *)
Lemma relay_down_short bufsize x : N.to_nat bufsize < length x ->
  let p := fst (steps dg_init [Wr false x]) in
  reachable p /\ pending p = [x] /\ relay_down bufsize p = (p, None).
Proof.
  intros Hlt p. split; [apply reachable_steps|].
  change p with (mkD [length x] x false). split.
  - unfold pending. cbn [lens buf split_by]. now rewrite firstn_all.
  - unfold relay_down, dg_read. cbn [lens]. now destruct (Nat.ltb_spec (N.to_nat bufsize) (length x)); [|lia].
Qed.

(* before the fix: an 8193-byte datagram from the peer (fits a frame) stopped the relay goroutine *)
Lemma relay_down_before_fix_refuted : exists p x,
  reachable p /\ pending p = [x] /\ (Z.of_nat (length x) <= max_unit 16401)%Z
  /\ relay_down relay_buf_prefix p = (p, None).
Proof.
  destruct (relay_down_short relay_buf_prefix (repeat 7%N (N.to_nat 8193))) as (Hre & Hp & Hr).
  { rewrite repeat_length. unfold relay_buf_prefix. lia. }
  eexists _, _. repeat split; try eassumption. rewrite repeat_length. vm_compute. discriminate.
Qed.

Lemma nonnil_match {A} (l : list A) : l <> [] -> match l with [] => [] | a :: r => [a :: r] end = [l].
Proof. destruct l; [contradiction|reflexivity]. Qed.

Lemma server_relay_partial maxu d : (0 < maxu)%Z ->
  ((0 < Z.of_nat (length d) <= maxu)%Z -> stream_read_from_dgram maxu d = [d])
  /\ ((maxu < Z.of_nat (length d))%Z ->
       stream_read_from_dgram maxu d = [firstn (Z.to_nat maxu) d]
       /\ Z.of_nat (length (firstn (Z.to_nat maxu) d)) = maxu).
Proof.
  intros H0. unfold stream_read_from_dgram. split; intros Hd.
  - rewrite firstn_all2 by lia. apply nonnil_match. intros ->. cbn in Hd. lia.
  - assert (Hl : length (firstn (Z.to_nat maxu) d) = Z.to_nat maxu) by (rewrite firstn_length; lia).
    split; [|lia]. apply nonnil_match. intros E. rewrite E in Hl. cbn in Hl. lia.
Qed.

(* server side, Stream.ReadFrom on the proxy server's UDP socket: the second half of relay_full (a larger
   datagram is refused) does not hold there *)
Lemma server_relay_refuted : ~ forall d,
  (max_unit 16401 < Z.of_nat (length d))%Z -> stream_read_from_dgram (max_unit 16401) d = [].
Proof.
  intros H. specialize (H (repeat 7%N (N.to_nat 16133))).
  destruct (server_relay_partial (max_unit 16401) (repeat 7%N (N.to_nat 16133)) eq_refl) as [_ Hp].
  rewrite repeat_length in H, Hp.
  assert (Hl : (max_unit 16401 < Z.of_nat (N.to_nat 16133))%Z) by (vm_compute; reflexivity).
  rewrite (H Hl) in Hp. destruct (Hp Hl) as [E _]. discriminate E.
Qed.

(* Receive side of an unordered session: per-stream isolation *)
Local Open Scope N_scope.

Definition pipe_of (s : N) (st : sess) : dg :=
  match lookup s (table st) with Some e => spipe e | None => dg_init end.
Definition live_of (s : N) (st : sess) : bool :=
  match lookup s (table st) with Some e => live e | None => false end.
Definition spending (s : N) (st : sess) : list (list N) := pending (pipe_of s st).

Lemma lookup_update s' s p lv t :
  lookup s' (update s p lv t) = if s' =? s then Some (mkE s p lv) else lookup s' t.
Proof.
  induction t as [|e r IH]; cbn [update lookup].
  - cbn [sid]. rewrite (N.eqb_sym s s'). destruct (s' =? s); reflexivity.
  - destruct (sid e =? s) eqn:E; cbn [lookup sid].
    + rewrite (N.eqb_sym s s'). destruct (s' =? s) eqn:E'; [reflexivity|].
      assert (sid e =? s' = false) by lia. now rewrite H.
    + destruct (sid e =? s') eqn:E'; [|exact IH].
      assert (s' =? s = false) by lia. now rewrite H.
Qed.

Lemma lookup_close_all s t :
  lookup s (close_all t) =
  option_map (fun e => if live e then mkE (sid e) (dg_close (spipe e)) false else e) (lookup s t).
Proof. induction t as [|e r IH]; cbn [close_all map lookup option_map]; [reflexivity|].
  fold (close_all r). destruct (live e) eqn:El; cbn [sid]; destruct (sid e =? s); cbn [option_map];
    rewrite ?El; auto. Qed.

Lemma pipe_of_update s' s p lv st c :
  pipe_of s' (mkS (update s p lv (table st)) c) = if s' =? s then p else pipe_of s' st.
Proof. unfold pipe_of. cbn [table]. rewrite lookup_update. now destruct (s' =? s). Qed.
Lemma live_of_update s' s p lv st c :
  live_of s' (mkS (update s p lv (table st)) c) = if s' =? s then lv else live_of s' st.
Proof. unfold live_of. cbn [table]. rewrite lookup_update. now destruct (s' =? s). Qed.
Lemma lookup_view s st e : lookup s (table st) = Some e -> pipe_of s st = spipe e /\ live_of s st = live e.
Proof. intros H. unfold pipe_of, live_of. now rewrite H. Qed.

(* every stream's pipe holds a queue of whole datagrams, and a stream whose slot is non-nil has an open pipe
   in a session that is not closed *)
Definition wf (st : sess) : Prop :=
  forall s, (exists pend, rep (pipe_of s st) pend)
            /\ (live_of s st = true -> closed (pipe_of s st) = false /\ sess_closed st = false).

Lemma pipe_of_opened s ids : pipe_of s (ss_opened ids) = dg_init.
Proof. unfold pipe_of. cbn [ss_opened table]. induction ids as [|i r IH]; cbn [map lookup sid]; [reflexivity|].
  now destruct (i =? s). Qed.

Lemma wf_opened ids : wf (ss_opened ids).
Proof. intros s. rewrite pipe_of_opened. split; [exists []; exact rep_init|now split]. Qed.

Lemma wf_init : wf ss_init.
Proof. exact (wf_opened []). Qed.

Lemma spending_opened s ids : spending s (ss_opened ids) = [].
Proof. unfold spending. now rewrite pipe_of_opened. Qed.

(* one-step contributions to the ghost lists of stream s *)
Definition acc1 (s : N) (e : sev) (o : sobs) : list (list N) :=
  match e, o with
  | SRecv f, OSRecv RvStored | SRecv f, OSRecv RvNewStored => if f_sid f =? s then [f_payload f] else []
  | _, _ => []
  end.
Definition del1 (s : N) (e : sev) (o : sobs) : list (list N) :=
  match e, o with
  | SRead s' _, OSRead (Sr (RdData x)) => if s' =? s then [x] else []
  | _, _ => []
  end.
Fixpoint s_accepted (s : N) (es : list sev) (os : list sobs) : list (list N) :=
  match es, os with
  | e :: es', o :: os' => acc1 s e o ++ s_accepted s es' os'
  | _, _ => []
  end.
Fixpoint s_delivered (s : N) (es : list sev) (os : list sobs) : list (list N) :=
  match es, os with
  | e :: es', o :: os' => del1 s e o ++ s_delivered s es' os'
  | _, _ => []
  end.

Lemma spending_rep s st pend : rep (pipe_of s st) pend -> spending s st = pend.
Proof. apply rep_pending. Qed.

(* Every event that changes the session replaces the entry of ONE stream s0.  If the queue of that
   stream's pipe goes from [pend] to [pend'] by accepting [a] and delivering [dl], the session stays
   well-formed and the same holds of the pending lists of all streams. *)
Lemma update_inv st s0 p' lv c pend pend' a dl :
  wf st -> c = sess_closed st -> rep (pipe_of s0 st) pend -> rep p' pend' -> pend ++ a = dl ++ pend' ->
  (lv = true -> closed p' = false /\ c = false) ->
  wf (mkS (update s0 p' lv (table st)) c)
  /\ forall s, spending s st ++ (if s0 =? s then a else [])
              = (if s0 =? s then dl else []) ++ spending s (mkS (update s0 p' lv (table st)) c).
Proof.
  intros Hwf -> Hr Hr' Heq Hlv. split; intros s.
  - unfold wf. rewrite pipe_of_update, live_of_update. cbn [sess_closed]. destruct (s =? s0).
    + split; [now exists pend'|exact Hlv].
    + apply Hwf.
  - unfold spending. rewrite pipe_of_update, (N.eqb_sym s0 s). destruct (N.eqb_spec s s0) as [->|_].
    + now rewrite (rep_pending _ _ Hr), (rep_pending _ _ Hr').
    + apply app_nil_r.
Qed.

Lemma recv_into_inv st isnew f st' r :
  wf st -> sess_closed st = false ->
  recv_into st (f_sid f) (pipe_of (f_sid f) st) isnew f = (st', r) ->
  wf st' /\ forall s, spending s st ++ acc1 s (SRecv f) (OSRecv r) = spending s st'.
Proof.
  intros Hwf Hsc H. unfold recv_into in H.
  destruct (Hwf (f_sid f)) as [[pend Hrep] _].
  destruct (dg_write _ _ (f_payload f)) as [p' w] eqn:Ew.
  pose proof (write_rep _ _ _ _ _ _ Hrep Ew) as Hw.
  destruct w.
  - destruct Hw as [Hr1 Hc1].
    destruct (update_inv st (f_sid f) p' true false pend _ [f_payload f] [] Hwf (eq_sym Hsc) Hrep Hr1 eq_refl)
      as [Hw He]; [now split|].
    destruct isnew; injection H as <- <-; (split; [exact Hw|]);
      intros s; specialize (He s); cbn [acc1]; now destruct (f_sid f =? s).
  - destruct Hw as [Hr1 _]. apply close_rep in Hr1.
    destruct (update_inv st (f_sid f) (dg_close p') false false pend pend [] [] Hwf (eq_sym Hsc) Hrep Hr1 (app_nil_r _))
      as [Hw He]; [discriminate|].
    destruct isnew; injection H as <- <-; (split; [exact Hw|]);
      intros s; specialize (He s); cbn [acc1]; now destruct (f_sid f =? s).
  - injection H as <- <-. split; [assumption|]. intros s. apply app_nil_r.
  - injection H as <- <-. split; [assumption|]. intros s. apply app_nil_r.
Qed.

(* closeSession *)
Lemma pipe_of_close_all s st c : pipe_of s (mkS (close_all (table st)) c)
  = if live_of s st then dg_close (pipe_of s st) else pipe_of s st.
Proof. unfold pipe_of, live_of. cbn [table]. rewrite lookup_close_all.
  destruct (lookup s (table st)) as [e|]; cbn [option_map]; [|reflexivity]. now destruct (live e). Qed.
Lemma live_of_close_all s st c : live_of s (mkS (close_all (table st)) c) = false.
Proof. unfold live_of. cbn [table]. rewrite lookup_close_all.
  destruct (lookup s (table st)) as [e|]; cbn [option_map]; [|reflexivity]. now destruct (live e) eqn:E. Qed.

Lemma wf_close_all st : wf st -> wf (mkS (close_all (table st)) true)
  /\ forall s, spending s (mkS (close_all (table st)) true) = spending s st.
Proof.
  intros Hwf. split; intros s.
  - unfold wf. rewrite pipe_of_close_all, live_of_close_all. split; [|discriminate].
    destruct (Hwf s) as [[pend Hr] _]. exists pend. destruct (live_of s st); [now apply close_rep|exact Hr].
  - unfold spending. rewrite pipe_of_close_all. now destruct (live_of s st).
Qed.

(* what ss_recv does with a frame that does not close the session, on a session that is not closed *)
Definition recv_stream (st : sess) (f : frame) : sess * rv_result :=
  match lookup (f_sid f) (table st) with
  | Some _ => if live_of (f_sid f) st then recv_into st (f_sid f) (pipe_of (f_sid f) st) false f
              else (st, RvDropped)
  | None => recv_into st (f_sid f) (pipe_of (f_sid f) st) true f
  end.

Lemma ss_recv_eq st f : ss_recv st f =
  if sess_closed st then (st, RvBroken) else
  match f_closing f with
  | ClSession => (mkS (close_all (table st)) true, RvSessionClosed)
  | _ => recv_stream st f
  end.
Proof. unfold ss_recv, recv_stream, pipe_of, live_of.
  destruct (f_closing f), (sess_closed st); try reflexivity; now destruct (lookup _ _). Qed.

Lemma recv_stream_inv st f st' r : wf st -> sess_closed st = false -> recv_stream st f = (st', r) ->
  wf st' /\ forall s, spending s st ++ acc1 s (SRecv f) (OSRecv r) = spending s st'.
Proof.
  intros Hwf Hsc H. unfold recv_stream in H.
  destruct (lookup (f_sid f) (table st)) as [e|]; [destruct (live_of (f_sid f) st)|];
    try now apply recv_into_inv in H.
  injection H as <- <-. split; [assumption|]. intros s. apply app_nil_r.
Qed.

Lemma sstep_inv st e st' o : wf st -> sstep st e = (st', o) ->
  wf st' /\ forall s, spending s st ++ acc1 s e o = del1 s e o ++ spending s st'.
Proof.
  intros Hwf H.
  assert (Hnop : forall s, spending s st ++ [] = [] ++ spending s st) by (intros s; apply app_nil_r).
  destruct e as [f|s0 k|s0]; cbn [sstep] in H.
  - destruct (ss_recv st f) as [st1 r] eqn:Er. injection H as <- <-. rewrite ss_recv_eq in Er.
    destruct (sess_closed st) eqn:Esc; [injection Er as <- <-; now split|].
    destruct (f_closing f); [exact (recv_stream_inv _ _ _ _ Hwf Esc Er)..|].
    injection Er as <- <-. destruct (wf_close_all st Hwf) as [Hw Hs]. split; [exact Hw|].
    intros s. cbn [acc1 del1 app]. now rewrite app_nil_r, Hs.
  - destruct (ss_read st s0 k) as [st1 r] eqn:Er. injection H as <- <-. unfold ss_read in Er.
    destruct (lookup s0 (table st)) as [e|] eqn:El; [|injection Er as <- <-; now split].
    destruct k as [|k']; [injection Er as <- <-; now split|].
    destruct (dg_read (spipe e) (S k')) as [p' rr] eqn:Erd. injection Er as <- <-.
    destruct (lookup_view _ _ _ El) as [Hp Hlv]. destruct (Hwf s0) as [[pend Hrep] Hlive].
    pose proof Hrep as Hrd. rewrite Hp in Hrd.
    destruct (read_step _ _ _ _ _ Hrd Erd) as (pend' & Hr' & Heq & Hc').
    destruct (update_inv st s0 p' (live e) _ pend pend' [] (delivered [ORd rr]) Hwf eq_refl Hrep Hr')
      as [Hw He]; [now rewrite app_nil_r|rewrite Hc', <- Hp, <- Hlv; exact Hlive|].
    split; [exact Hw|]. intros s. specialize (He s). cbn [acc1 del1].
    destruct rr; cbn [delivered] in He; now destruct (s0 =? s).
  - injection H as <- <-. unfold ss_close_stream.
    destruct (lookup s0 (table st)) as [e|] eqn:El; [|now split].
    destruct (live e); [|now split].
    destruct (Hwf s0) as [[pend Hrep] _]. pose proof Hrep as Hcl.
    rewrite (proj1 (lookup_view _ _ _ El)) in Hcl. apply close_rep in Hcl.
    destruct (update_inv st s0 _ false _ pend pend [] [] Hwf eq_refl Hrep Hcl (app_nil_r _)) as [Hw He];
      [discriminate|].
    split; [exact Hw|]. intros s. specialize (He s). cbn [acc1 del1]. now destruct (s0 =? s).
Qed.

Lemma srun_inv es : forall st st' os, wf st -> ssteps st es = (st', os) ->
  wf st' /\ forall s, spending s st ++ s_accepted s es os = s_delivered s es os ++ spending s st'.
Proof.
  induction es as [|e es IH]; intros st st' os Hwf H; cbn [ssteps] in H.
  - injection H as <- <-. split; [assumption|]. intros s. apply app_nil_r.
  - destruct (sstep st e) as [s1 o] eqn:E1. destruct (ssteps s1 es) as [s2 os'] eqn:E2. injection H as <- <-.
    destruct (sstep_inv _ _ _ _ Hwf E1) as [Hwf1 H1]. destruct (IH _ _ _ Hwf1 E2) as [Hwf2 H2].
    split; [assumption|]. intros s. cbn [s_accepted s_delivered].
    rewrite app_assoc, H1, <- app_assoc, H2. apply app_assoc.
Qed.

Definition sreachable (st : sess) : Prop := exists ids es os, ssteps (ss_opened ids) es = (st, os).

Lemma sreachable_wf st : sreachable st -> wf st.
Proof. intros (ids & es & os & H). exact (proj1 (srun_inv es _ _ _ (wf_opened ids) H)). Qed.

(* per stream: what reads on s returned, followed by what s still holds, is exactly what was
   stored for s - frames of other streams never show up, whatever the interleaving *)
Lemma isolation ids es st os : ssteps (ss_opened ids) es = (st, os) ->
  forall s, s_accepted s es os = s_delivered s es os ++ spending s st.
Proof. intros H s. destruct (srun_inv es _ _ _ (wf_opened ids) H) as [_ Heq]. specialize (Heq s).
  rewrite spending_opened in Heq. exact Heq. Qed.

(* while the session is healthy and the stream open (or new), a data frame is stored in its own
   stream's pipe and no other pipe changes *)
Lemma session_accepts st f : sreachable st -> sess_closed st = false -> f_closing f = ClNothing ->
  (lookup (f_sid f) (table st) = None \/ live_of (f_sid f) st = true) ->
  N.of_nat (length (buf (pipe_of (f_sid f) st))) <= buf_limit ->
  exists st' r, ss_recv st f = (st', r) /\ (r = RvStored \/ r = RvNewStored)
    /\ spending (f_sid f) st' = spending (f_sid f) st ++ [f_payload f]
    /\ forall s, s <> f_sid f -> pipe_of s st' = pipe_of s st /\ live_of s st' = live_of s st.
Proof.
  intros Hre Hsc Hcl Hlk Hlim. pose proof (sreachable_wf _ Hre) as Hwf.
  assert (Hopen : closed (pipe_of (f_sid f) st) = false
                  /\ exists isnew, recv_stream st f = recv_into st (f_sid f) (pipe_of (f_sid f) st) isnew f).
  { unfold recv_stream. destruct Hlk as [Hnone | Hlive].
    - rewrite Hnone. split; [unfold pipe_of; now rewrite Hnone|now exists true].
    - rewrite Hlive. split; [now apply Hwf|]. destruct (lookup _ _); [now exists false|now exists true]. }
  destruct Hopen as (Hc & isnew & Eq). rewrite ss_recv_eq, Hsc, Hcl, Eq.
  destruct (recv_into st (f_sid f) _ isnew f) as [st' r] eqn:Er.
  destruct (recv_into_inv _ _ _ _ _ Hwf Hsc Er) as [_ Heq]. specialize (Heq (f_sid f)).
  unfold recv_into in Er. rewrite Hcl, write_open in Er by assumption.
  injection Er as <- <-. eexists _, _. split; [reflexivity|].
  split; [destruct isnew; auto|]. split.
  - rewrite <- Heq. destruct isnew; cbn [acc1]; now rewrite N.eqb_refl.
  - intros s Hs. apply N.eqb_neq in Hs. now rewrite pipe_of_update, live_of_update, Hs.
Qed.

(* non-vacuity *)
Example ex_run :
  let es := [Wr false [1;2;3]; Rd 2; Wr false [4]; Wr false []; Rd 3; Rd 0; Rd 5; Rd 1; Wr true [9]; Rd 1; Wr false [7]] in
  snd (steps dg_init es) =
    [OWr WrStored; ORd RdShort; OWr WrStored; OWr WrStored; ORd (RdData [1;2;3]); ORd RdShort;
     ORd (RdData [4]); ORd (RdData []); OWr WrClosing; ORd RdEOF; OWr WrClosedPipe].
Proof. vm_compute. reflexivity. Qed.

Example ex_data_only :
  let es := [Wr false [1;2;3]; Rd 2; Wr false [4]; Rd 9] in
  data_only es /\ (N.of_nat (total_bytes es) <= buf_limit)%N
  /\ pending (fst (steps dg_init es)) = [[4]] /\ Forall2 (fun k x => length x <= k)%nat [1%nat] [[4]].
Proof. repeat split; try (repeat constructor; fail). cbn. unfold buf_limit. vm_compute. discriminate. Qed.

Example ex_session :
  let es := [SRecv (mkF 1 ClNothing [1;2]); SRecv (mkF 2 ClNothing [3]); SRecv (mkF 1 ClNothing [4]);
             SRead 2 8; SRead 1 1; SRead 1 8; SRecv (mkF 1 ClStream [0]); SRecv (mkF 1 ClNothing [5]);
             SRead 1 8; SRead 1 8; SRecv (mkF 9 ClSession [0]); SRead 2 8; SRecv (mkF 2 ClNothing [6])] in
  snd (ssteps ss_init es) =
    [OSRecv RvNewStored; OSRecv RvNewStored; OSRecv RvStored; OSRead (Sr (RdData [3])); OSRead (Sr RdShort);
     OSRead (Sr (RdData [1;2])); OSRecv RvStreamClosed; OSRecv RvDropped; OSRead (Sr (RdData [4]));
     OSRead (Sr RdEOF); OSRecv RvSessionClosed; OSRead (Sr RdEOF); OSRecv RvBroken].
Proof. vm_compute. reflexivity. Qed.
