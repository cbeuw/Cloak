(* Safety invariants of the session-pair model that hold after EVERY label sequence
   (faults, closes and timers included): consistency of closed flags and pipes, teardown
   completeness, connection closing, nothing left blocked.  (C12) *)
From Coq Require Import NArith ZArith List Bool Lia.
From Coq Require Import ZifyN ZifyBool.
From Cloak Require Import Model.Reorder Model.Mux Proofs.MuxBase.
Import ListNotations.
Local Open Scope N_scope.

Definition obj_ok (se : session) : Prop :=
  forall id st, lookup id (se_objs se) = Some st ->
    st_closed st = pclosed (st_rb st) /\
    (st_closed st = false -> lookup id (se_tab se) = Some true) /\
    (se_closed se = false -> lookup id (se_tab se) <> None).
Definition closed_ok (se : session) : Prop :=
  se_closed se = true -> forall id st, lookup id (se_objs se) = Some st -> st_closed st = true.
Definition broken_ok (se : session) : Prop := se_broken se = true -> se_closed se = true.
Definition WFse (se : session) : Prop := obj_ok se /\ closed_ok se /\ broken_ok se.

Definition ends_ok (y : sys) (s : side) : Prop :=
  se_broken (sess y s) = true ->
  forall c cn, In c (se_pool (sess y s)) -> nthN (N.to_nat c) (sy_conns y) = Some cn ->
               conn_closed_end cn s = true.
Definition WF (y : sys) : Prop :=
  WFse (sess y SA) /\ WFse (sess y SB) /\ ends_ok y SA /\ ends_ok y SB.

Lemma WF_sess y s : WF y -> WFse (sess y s).
Proof. intros (Ha & Hb & _). destruct s; assumption. Qed.
Lemma WF_ends y s : WF y -> ends_ok y s.
Proof. intros (_ & _ & Ha & Hb). destruct s; assumption. Qed.

Lemma WFse_upd_obj se id st' :
  WFse se ->
  st_closed st' = pclosed (st_rb st') ->
  (st_closed st' = false -> lookup id (se_tab se) = Some true) ->
  (se_closed se = true -> st_closed st' = true) ->
  (se_closed se = false -> lookup id (se_tab se) <> None) ->
  WFse (upd_objs se (update id st' (se_objs se))).
Proof.
  intros (Ho & Hc & Hb) H1 H2 H3 H4. destruct se; cbn in *. split; [|split].
  - intros id0 st Hl. cbn in Hl. rewrite lookup_update in Hl. destruct (id0 =? id) eqn:E.
    + injection Hl as <-. assert (id0 = id) by lia; subst. split; [exact H1|split; [exact H2|exact H4]].
    + apply (Ho _ _ Hl).
  - intros Hcl id0 st Hl. cbn in Hl. rewrite lookup_update in Hl. destruct (id0 =? id).
    + injection Hl as <-. auto.
    + eapply Hc; eauto.
  - exact Hb.
Qed.

Lemma WFse_tab se id b :
  WFse se -> (b = false -> forall st, lookup id (se_objs se) = Some st -> st_closed st = true) ->
  WFse (upd_tab se (update id b (se_tab se))).
Proof.
  intros (Ho & Hc & Hb) Hcl. split; [|split]; try assumption.
  intros id0 st Hl. cbn in Hl. destruct (Ho _ _ Hl) as (H1 & H2 & H3). split; [exact H1|split].
  - intros Hop. cbn. rewrite lookup_update. destruct (id0 =? id) eqn:E; [|apply (H2 Hop)].
    assert (id0 = id) by lia; subst. destruct b; [reflexivity|]. rewrite (Hcl eq_refl _ Hl) in Hop. discriminate.
  - intros Hc'. cbn. rewrite lookup_update. destruct (id0 =? id); [discriminate|]. apply (H3 Hc').
Qed.
Lemma WFse_tab_true se id : WFse se -> WFse (upd_tab se (update id true (se_tab se))).
Proof. intros H. apply WFse_tab; [exact H|discriminate]. Qed.

(* WFse reads four fields only *)
Lemma WFse_same se se' :
  se_objs se' = se_objs se -> se_tab se' = se_tab se -> se_closed se' = se_closed se ->
  se_broken se' = se_broken se -> WFse se -> WFse se'.
Proof. unfold WFse, obj_ok, closed_ok, broken_ok. intros -> -> -> ->. exact (fun H => H). Qed.
Lemma WFse_broken se : WFse se -> se_closed se = true -> WFse (upd_broken se true).
Proof. intros (Ho & Hc & Hb) H. split; [exact Ho|split; [exact Hc|intros _; exact H]]. Qed.

Lemma WF_open_has_entry y x id : WF y -> open_has_entry (sess y x) id.
Proof. intros Hwf st El Ec _. destruct (WF_sess y x Hwf) as (Ho & _). exact (proj1 (proj2 (Ho _ _ El)) Ec). Qed.

(* closeSession's sweep closes exactly the open objects that have a live entry.  (In sweep_objs the
   induction hypothesis is used twice, at the queried id and at the key of the head entry: the sweep
   looks the head's object up among the objects the tail has already swept.) *)
Definition swept (tab : list (N * bool)) (id : N) : bool :=
  existsb (fun e : N * bool => (fst e =? id) && snd e) tab.
Definition shut (st : stream) : stream := mkS (st_seq st) (st_wcl st) true (rb_close (st_rb st)).

Lemma sweep_objs tab : forall objs cnt id,
  lookup id (snd (fst (sweep tab objs cnt))) =
  option_map (fun st => if swept tab id && negb (st_closed st) then shut st else st) (lookup id objs).
Proof.
  induction tab as [|[i live] t IH]; intros objs cnt id; cbn [sweep swept existsb fst snd].
  - destruct (lookup id objs); reflexivity.
  - pose proof (IH objs cnt i) as IHi. specialize (IH objs cnt id). fold (swept t id). fold (swept t i) in IHi.
    destruct (sweep t objs cnt) as [[t' o'] c']. cbn [fst snd] in IH, IHi.
    destruct live; rewrite ?andb_false_r; cbn [orb]; [|exact IH].
    destruct (i =? id) eqn:E; cbn [andb orb].
    + assert (i = id) by lia. subst i. rewrite IHi. destruct (lookup id objs) as [st|]; [|exact IH]. cbn [option_map].
      destruct (st_closed st) eqn:Ec; rewrite ?andb_false_r; cbn [negb]; [rewrite Ec; cbn [fst snd]; rewrite IH; cbn; now rewrite Ec, andb_false_r|].
      rewrite andb_true_r. destruct (swept t id); cbn [shut st_closed fst snd].
      * rewrite IH. cbn. now rewrite Ec.
      * rewrite Ec. cbn [fst snd]. now rewrite lookup_update_eq.
    + destruct (lookup i o') as [st0|]; [|exact IH]. destruct (st_closed st0); cbn [fst snd]; [exact IH|].
      rewrite lookup_update. replace (id =? i) with false by lia. exact IH.
Qed.
Lemma live_swept tab id : lookup id tab = Some true -> swept tab id = true.
Proof.
  induction tab as [|[i b] t IH]; cbn; [discriminate|]. rewrite (N.eqb_sym i id).
  destruct (id =? i); [intros H; injection H as ->; reflexivity|rewrite orb_false_l; exact IH].
Qed.

Lemma close_session_core_WF se :
  WFse se -> WFse (fst (close_session_core se)) /\ se_closed (fst (close_session_core se)) = true.
Proof.
  intros (Ho & Hc & Hb). unfold close_session_core. destruct (se_closed se) eqn:Ecl.
  - cbn. split; [split; [exact Ho|split; [exact Hc|exact Hb]]|exact Ecl].
  - pose proof (sweep_objs (se_tab se) (se_objs se) (se_count se)) as Hs.
    destruct (sweep (se_tab se) (se_objs se) (se_count se)) as [[t' o'] c']. cbn [fst snd] in Hs.
    cbn. split; [|reflexivity].
    (* an object that was open had a live entry, so the sweep has shut it *)
    assert (Hall : forall id st', lookup id o' = Some st' -> st_closed st' = true /\ st_closed st' = pclosed (st_rb st')).
    { intros id st' Hl. rewrite Hs in Hl. destruct (lookup id (se_objs se)) as [st|] eqn:El; [|discriminate].
      destruct (Ho _ _ El) as (H1 & H2 & _). cbn in Hl. injection Hl as <-.
      destruct (st_closed st) eqn:E; [rewrite andb_false_r, E; auto|].
      rewrite (live_swept _ _ (H2 eq_refl)). cbn. auto. }
    split; [|split].
    + intros id st Hl. cbn in Hl. destruct (Hall _ _ Hl) as [Hx Hy]. split; [exact Hy|split; [intros Hop; congruence|intros Hf; discriminate Hf]].
    + intros _ id st Hl. cbn in Hl. apply (Hall _ _ Hl).
    + intros _. reflexivity.
Qed.

Lemma close_session_core_other_fields se :
  let se' := fst (close_session_core se) in
  se_pool se' = se_pool se /\ se_broken se' = se_broken se /\ se_singleplex se' = se_singleplex se.
Proof. unfold close_session_core. destruct (se_closed se); [cbn; auto|].
  destruct (sweep _ _ _) as [[t o] c]. destruct se; cbn. auto. Qed.

Definition conns_mono (cs cs' : list conn) : Prop :=
  length cs' = length cs /\
  forall n a, nthN n cs = Some a -> exists b, nthN n cs' = Some b /\
    (c_clA a = true -> c_clA b = true) /\ (c_clB a = true -> c_clB b = true).
Lemma conns_mono_refl cs : conns_mono cs cs.
Proof. split; [reflexivity|]. intros n a H. exists a. auto. Qed.
Lemma conns_mono_trans a b c : conns_mono a b -> conns_mono b c -> conns_mono a c.
Proof. intros [L1 H1] [L2 H2]. split; [congruence|]. intros n x Hx.
  destruct (H1 _ _ Hx) as (y & Hy & Ha & Hb). destruct (H2 _ _ Hy) as (z & Hz & Ha' & Hb').
  exists z. auto. Qed.
Lemma conns_mono_setN cs n a b :
  nthN n cs = Some a -> (c_clA a = true -> c_clA b = true) -> (c_clB a = true -> c_clB b = true) ->
  conns_mono cs (setN n b cs).
Proof. intros Hn Ha Hb. split; [apply length_setN|]. intros m x Hx.
  destruct (Nat.eq_dec m n) as [->|Hne].
  - rewrite Hn in Hx. injection Hx as <-. exists b. split; [eapply nthN_setN_eq; eauto|auto].
  - exists x. rewrite nthN_setN_neq; auto. Qed.

Lemma close_ends_mono s pool cs : conns_mono cs (fst (close_ends s pool cs)).
Proof. split; [apply close_ends_length|]. intros n a Hn.
  destruct (close_ends_le s pool cs _ _ Hn) as (b & Hb & Hle).
  exists b. split; [exact Hb|]. apply (conn_le_mono _ _ _ Hle). Qed.

Lemma ends_ok_mono y y' s :
  ends_ok y s -> conns_mono (sy_conns y) (sy_conns y') ->
  se_pool (sess y' s) = se_pool (sess y s) ->
  (se_broken (sess y' s) = true -> se_broken (sess y s) = true) ->
  ends_ok y' s.
Proof.
  intros He [Hlen Hm] Hp Hb Hbr c cn Hin Hn. rewrite Hp in Hin.
  assert (exists a, nthN (N.to_nat c) (sy_conns y) = Some a) as [a Ha].
  { apply nthN_lt_Some. rewrite <- Hlen. eapply nthN_Some_lt; eauto. }
  destruct (Hm _ _ Ha) as (b & Hb' & HA & HB). rewrite Hn in Hb'. injection Hb' as <-.
  specialize (He (Hb Hbr) c a Hin Ha). destruct s; cbn in *; auto.
Qed.

Lemma WF_by_side y s :
  WFse (sess y s) -> WFse (sess y (other s)) -> ends_ok y s -> ends_ok y (other s) -> WF y.
Proof. destruct s; unfold WF; cbn; tauto. Qed.

(* the generic way to re-establish WF after a step of one side *)
Lemma WF_update y y' s :
  WF y -> WFse (sess y' s) -> sess y' (other s) = sess y (other s) ->
  conns_mono (sy_conns y) (sy_conns y') ->
  se_pool (sess y' s) = se_pool (sess y s) ->
  (se_broken (sess y' s) = true -> se_broken (sess y s) = true) ->
  WF y'.
Proof.
  intros Hwf Hs Ho Hm Hp Hb. apply (WF_by_side y' s); [exact Hs|rewrite Ho; apply WF_sess; exact Hwf| |].
  - eapply (ends_ok_mono y); eauto. apply WF_ends; exact Hwf.
  - eapply (ends_ok_mono y); [apply WF_ends; exact Hwf|exact Hm|rewrite Ho; reflexivity|rewrite Ho; auto].
Qed.

Lemma WF_set_sess y s se :
  WF y -> WFse se -> se_pool se = se_pool (sess y s) ->
  (se_broken se = true -> se_broken (sess y s) = true) -> WF (set_sess y s se).
Proof.
  intros Hwf Hse Hp Hb. apply (WF_update y _ s Hwf).
  - now rewrite sess_set_same.
  - now rewrite sess_set_other.
  - rewrite conns_set_sess. apply conns_mono_refl.
  - now rewrite sess_set_same.
  - now rewrite sess_set_same.
Qed.

Lemma WF_set_conns y cs : WF y -> conns_mono (sy_conns y) cs -> WF (set_conns y cs).
Proof.
  intros Hwf Hm. apply (WF_update y _ SA Hwf); cbn; auto. apply (WF_sess y SA Hwf).
Qed.
Lemma WF_set_now y t : WF y -> WF (set_now y t).
Proof. intros H. exact H. Qed.
Lemma WF_set_q y x c cn q :
  WF y -> nthN c (sy_conns y) = Some cn -> WF (set_conns y (setN c (conn_set_q cn x q) (sy_conns y))).
Proof.
  intros Hwf En. apply WF_set_conns; [exact Hwf|]. destruct (conn_set_q_flags cn x q) as (Ha & Hb & _).
  eapply conns_mono_setN; [exact En|rewrite Ha; auto|rewrite Hb; auto].
Qed.
Lemma close_core_WF y s se ok :
  close_session_core (sess y s) = (se, ok) -> WF y -> WF (set_sess y s se) /\ se_closed se = true.
Proof.
  intros Ecs Hwf. pose proof (close_session_core_WF (sess y s) (WF_sess y s Hwf)) as [Hse Hcl].
  pose proof (close_session_core_other_fields (sess y s)) as (Hp & Hb & _). rewrite Ecs in Hse, Hcl, Hp, Hb. cbn [fst] in *.
  split; [|exact Hcl]. apply WF_set_sess; auto. rewrite Hb; auto.
Qed.

Lemma close_all_WF y s y' evs :
  close_all y s = (y', evs) -> WF y -> se_closed (sess y s) = true -> WF y'.
Proof.
  unfold close_all. intros H Hwf Hcl. destruct (se_broken (sess y s)) eqn:Eb; [injection H as <- <-; exact Hwf|].
  destruct (close_ends s (se_pool (sess y s)) (sy_conns y)) as [cs evs0] eqn:Ece. injection H as <- <-.
  pose proof (close_ends_mono s (se_pool (sess y s)) (sy_conns y)) as Hmono. rewrite Ece in Hmono. cbn in Hmono.
  pose proof (close_ends_closed s (se_pool (sess y s)) (sy_conns y)) as Hcl2. rewrite Ece in Hcl2. cbn in Hcl2.
  apply (WF_by_side _ s); rewrite ?sess_set_conns, ?sess_set_same, ?sess_set_other.
  - apply WFse_broken; [apply WF_sess; exact Hwf|exact Hcl].
  - apply WF_sess; exact Hwf.
  - (* every pooled connection existed before, and close_ends has closed its end *)
    intros _ c cn Hin Hn. rewrite sess_set_conns, sess_set_same in Hin. cbn in Hn.
    assert (exists a, nthN (N.to_nat c) (sy_conns y) = Some a) as [a Ha].
    { apply nthN_lt_Some. destruct Hmono as [Hl _]. rewrite <- Hl. eapply nthN_Some_lt; eauto. }
    destruct (Hcl2 _ _ Hin Ha) as (b & Hb & Hc). rewrite Hn in Hb. injection Hb as <-. exact Hc.
  - eapply (ends_ok_mono y); [apply WF_ends; exact Hwf|exact Hmono| |]; rewrite sess_set_conns, sess_set_other; auto.
Qed.

Lemma passive_close_WF y s y' evs : passive_close y s = (y', evs) -> WF y -> WF y'.
Proof.
  unfold passive_close. intros H Hwf.
  destruct (close_session_core (sess y s)) as [se ok] eqn:Ecs.
  destruct ok; [|injection H as <- <-; exact Hwf].
  destruct (close_core_WF _ _ _ _ Ecs Hwf) as [Hwf1 Hcl].
  eapply close_all_WF; [exact H|exact Hwf1|now rewrite sess_set_same].
Qed.

Lemma sb_send_WF y s fr p y' evs rc : sb_send y s fr p = (y', evs, rc) -> WF y -> WF y'.
Proof.
  intros H Hwf. destruct (sb_send_cases _ _ _ _ _ _ _ H) as [[-> _]|[[Epc _]|(cn & En & _ & _ & ->)]];
    [exact Hwf|eapply passive_close_WF; eauto|now apply WF_set_q].
Qed.
Lemma sb_send_closed_mono y s fr p y' evs rc s' :
  sb_send y s fr p = (y', evs, rc) -> se_closed (sess y s') = true -> se_closed (sess y' s') = true.
Proof.
  intros H Hc. destruct (sb_send_cases _ _ _ _ _ _ _ H) as [[-> _]|[[Epc _]|(cn & _ & _ & _ & ->)]].
  - exact Hc.
  - destruct (side_cases s' s) as [->| ->]; [eapply passive_close_closed; eauto|].
    now rewrite (passive_close_other _ _ _ _ Epc).
  - now rewrite sess_set_conns.
Qed.

Lemma session_close_WF y s ch y' ch' evs rc :
  session_close y s ch = (y', ch', evs, rc) -> WF y -> WF y'.
Proof.
  intros H Hwf. destruct (session_close_steps _ _ _ _ _ _ _ H) as [[-> _]|(se & y2 & e2 & rc2 & e3 & Ecs & Es & Eca & _)]; [exact Hwf|].
  destruct (close_core_WF _ _ _ _ Ecs Hwf) as [Hwf1 Hcl].
  eapply close_all_WF; [exact Eca|eapply sb_send_WF; eauto|].
  eapply sb_send_closed_mono; [exact Es|]. now rewrite sess_set_same.
Qed.

Lemma WFse_add_stream se id st' :
  WFse se -> st_closed st' = pclosed (st_rb st') ->
  (se_closed se = true -> st_closed st' = true) ->
  WFse (upd_tab (upd_objs se (update id st' (se_objs se))) (update id true (se_tab se))).
Proof.
  intros Hse H1 H3.
  apply (WFse_upd_obj (upd_tab se (update id true (se_tab se)))); [now apply WFse_tab_true|exact H1| |exact H3|];
    intros _; cbn; rewrite lookup_update_eq; [reflexivity|discriminate].
Qed.

(* WF holds after every move, not only at the end of a label *)
Lemma smove_WFse P se se' : smove P se se' -> WFse se -> WFse se'.
Proof.
  intros Hm Hse. pose proof Hse as (Ho & Hcl & Hb).
  destruct Hm as [q n ts|id st st' El Hc _ Hp|id st w _ El Hc|id st El Hc _|id q n Hop _].
  - revert Hse. now apply WFse_same.
  - destruct (Ho _ _ El) as (H1 & H2 & H3).
    apply WFse_upd_obj; [exact Hse|congruence|rewrite Hc; exact H2| |exact H3].
    intros E. rewrite Hc. eapply Hcl; eauto.
  - destruct (Ho _ _ El) as (_ & _ & H3).
    apply WFse_upd_obj; [exact Hse|reflexivity|discriminate|reflexivity|exact H3].
  - apply (WFse_same (upd_tab se (update id false (se_tab se)))); try reflexivity.
    apply WFse_tab; [exact Hse|]. intros _ st0 E. congruence.
  - apply (WFse_same (upd_tab (upd_objs se (update id new_stream (se_objs se))) (update id true (se_tab se)))); try reflexivity.
    apply WFse_add_stream; [exact Hse|reflexivity|].
    cbn. rewrite Hop. discriminate.
Qed.

Lemma atom_WF s P y y' : atom s P y y' -> WF y -> WF y'.
Proof.
  intros Ha Hwf. destruct Ha as [p|t|n cn cn' En Ha Hb|se' Hm|y' evs _ H|ch y' ch' evs rc _ H].
  - exact Hwf.
  - exact Hwf.
  - apply WF_set_conns; [exact Hwf|]. eapply conns_mono_setN; eauto.
  - destruct (smove_fields _ _ _ Hm) as (_ & Hb & Hp & _).
    apply WF_set_sess; [exact Hwf|eapply smove_WFse; [exact Hm|apply WF_sess; exact Hwf]|exact Hp|rewrite Hb; auto].
  - eapply passive_close_WF; eauto.
  - eapply session_close_WF; eauto.
Qed.
Lemma moves_WF A P y y' : moves A P y y' -> WF y -> WF y'.
Proof. apply moves_inv. intros s a b _. apply atom_WF. Qed.

Lemma stream_emit_WF y s sid pay ch y' ch' evs ok :
  stream_emit y s sid pay ch = (y', ch', evs, ok) -> WF y -> WF y'.
Proof. intros H. apply (moves_WF (fun _ => True) (fun _ _ => True)). eapply stream_emit_moves; eauto. Qed.

Lemma step_WF y l ch y' evs : step y l ch = (y', evs) -> WF y -> WF y'.
Proof.
  intros H. apply (moves_WF (fun _ => True) (fun _ _ => True)). eapply step_moves; [exact H|exact (fun _ => I)|apply allows_all].
Qed.

Lemma WFse_mk k sp u t : WFse (mk_session k sp u t).
Proof. split; [|split]; [intros id st H; discriminate H|intros H; discriminate H|intros H; discriminate H]. Qed.

Lemma init_WF k sp u ta tb : WF (init k sp u ta tb).
Proof.
  split; [apply WFse_mk|split; [apply WFse_mk|split]]; intros H; discriminate H.
Qed.

Definition pend_side (p : pending) : side := match p with PRead s _ _ => s | PAccept s => s end.

Lemma try_read_None_open y s sid k :
  WF y -> try_read y s sid k = None -> se_closed (sess y s) = false.
Proof.
  unfold try_read. intros Hwf H.
  destruct (lookup sid (se_objs (sess y s))) as [st|] eqn:El; [|discriminate].
  destruct k; [discriminate|].
  destruct (WF_sess y s Hwf) as (Ho & Hc & _). destruct (Ho _ _ El) as (H1 & _ & _).
  unfold rb_read in H. destruct (pipe (st_rb st)); [|discriminate].
  destruct (pclosed (st_rb st)) eqn:Ep; [discriminate|].
  destruct (se_closed (sess y s)) eqn:Ecl; [|reflexivity].
  specialize (Hc Ecl _ _ El). congruence.
Qed.
Lemma try_accept_None_open y s : try_accept y s = None -> se_closed (sess y s) = false.
Proof. unfold try_accept. destruct (se_acceptq _); [|discriminate]. destruct (se_closed _); [discriminate|reflexivity]. Qed.

Lemma resolve_kept_open ps : forall y y' ps' evs,
  resolve ps y = (y', ps', evs) -> WF y ->
  forall p, In p ps' -> se_closed (sess y' (pend_side p)) = false.
Proof.
  induction ps as [|p t IH]; intros y y' ps' evs H Hwf; cbn in H.
  - injection H as <- <- <-. intros p [].
  - destruct p as [s sid k|s].
    + destruct (try_read y s sid k) as [[[y1 rc] d]|] eqn:Et.
      * destruct (resolve t y1) as [[y2 ps2] e2] eqn:Er. injection H as <- <- <-.
        eapply IH; [exact Er|]. eapply (moves_WF (fun _ => True) (fun _ _ => True)); [|exact Hwf].
        eapply try_read_moves; eauto.
      * destruct (resolve t y) as [[y2 ps2] e2] eqn:Er. injection H as <- <- <-.
        intros p [<-|Hin]; [|eapply IH; eauto]. cbn. rewrite (resolve_closed _ _ _ _ _ s Er).
        eapply try_read_None_open; eauto.
    + destruct (try_accept y s) as [[[y1 rc] id]|] eqn:Et.
      * destruct (resolve t y1) as [[y2 ps2] e2] eqn:Er. injection H as <- <- <-.
        eapply IH; [exact Er|]. eapply (moves_WF (fun _ => True) (fun _ _ => True)); [|exact Hwf].
        eapply try_accept_moves; eauto.
      * destruct (resolve t y) as [[y2 ps2] e2] eqn:Er. injection H as <- <- <-.
        intros p [<-|Hin]; [|eapply IH; eauto]. cbn. rewrite (resolve_closed _ _ _ _ _ s Er).
        apply try_accept_None_open. exact Et.
Qed.

(* after every label: a call that is still blocked belongs to a session that is not closed *)
Lemma step_nothing_left_blocked y l ch y' evs :
  step y l ch = (y', evs) -> WF y ->
  forall p, In p (sy_pend y') -> se_closed (sess y' (pend_side p)) = false.
Proof.
  unfold step. intros H Hwf. destruct (step_core y l ch) as [y1 e1] eqn:Ec.
  destruct (resolve (sy_pend y1) y1) as [[y2 ps] e2] eqn:Er. injection H as <- <-.
  intros p Hin. cbn in Hin. rewrite sess_set_pend. eapply resolve_kept_open; [exact Er| |exact Hin].
  eapply (moves_WF (fun _ => True) (fun _ _ => True)); [|exact Hwf]. eapply step_core_moves; [exact Ec|exact (fun _ => I)|apply allows_all].
Qed.

(* the inactivity check closes a session only when its stream count is zero *)
Lemma fire_timers_idle fuel : forall y s ch y' ch' evs,
  fire_timers fuel y s ch = (y', ch', evs) ->
  se_closed (sess y s) = false -> se_closed (sess y' s) = true -> se_count (sess y s) = 0.
Proof.
  induction fuel as [|fuel IH]; intros y s ch y' ch' evs H Hop Hcl; cbn in H.
  - injection H as <- <- <-. congruence.
  - destruct (se_timers (sess y s)) as [|t rest] eqn:Et; [injection H as <- <- <-; congruence|].
    destruct (t <=? sy_now y)%Z; [|injection H as <- <- <-; congruence].
    set (y1 := set_sess y s _) in H.
    assert (Hc1 : se_count (sess y1 s) = se_count (sess y s)) by (unfold y1; rewrite sess_set_same; reflexivity).
    assert (Ho1 : se_closed (sess y1 s) = se_closed (sess y s)) by (unfold y1; rewrite sess_set_same; reflexivity).
    destruct ((se_count (sess y1 s) =? 0) && negb (se_closed (sess y1 s))) eqn:Eb.
    + apply andb_prop in Eb as [E0 _]. lia.
    + rewrite <- Hc1. eapply IH; [exact H|congruence|exact Hcl].
Qed.

(* a reset seen by both ends closes both sessions (each side whose end was still open) *)
Lemma fail_closes_both y c ch cn :
  nthN (N.to_nat c) (sy_conns y) = Some cn -> c_failed cn = false ->
  forall s, conn_closed_end cn s = false -> se_closed (sess (fst (step y (LFail c) ch)) s) = true.
Proof.
  unfold step. intros En Hnf s Hopen.
  destruct (step_core y (LFail c) ch) as [y1 e1] eqn:Ec.
  destruct (resolve (sy_pend y1) y1) as [[y2 ps] e2] eqn:Er. cbn [fst].
  rewrite sess_set_pend, (resolve_closed _ _ _ _ _ s Er).
  rewrite step_core_fail in Ec. rewrite En, Hnf in Ec. rewrite !orb_false_r in Ec. cbv zeta in Ec.
  destruct (if conn_closed_end cn SA then _ else _) as [ya ea] eqn:Ea.
  destruct (if conn_closed_end cn SB then _ else _) as [yb eb] eqn:Eb.
  injection Ec as <- <-.
  destruct s.
  - rewrite Hopen in Ea. pose proof (deplex_error_closed _ _ _ _ _ Ea) as Hca.
    destruct (conn_closed_end cn SB); [injection Eb as <- <-; exact Hca|].
    apply deplex_error_other in Eb. cbn [other] in Eb. rewrite Eb. exact Hca.
  - rewrite Hopen in Eb. eapply deplex_error_closed; eauto.
Qed.

Lemma run_pending_open ls : forall y y' os,
  run y ls = (y', os) -> WF y ->
  (forall p, In p (sy_pend y) -> se_closed (sess y (pend_side p)) = false) ->
  forall p, In p (sy_pend y') -> se_closed (sess y' (pend_side p)) = false.
Proof.
  intros y y' os H Hwf Hp.
  refine (proj2 (run_inv (fun z => WF z /\ forall p, In p (sy_pend z) -> se_closed (sess z (pend_side p)) = false)
                         _ ls y y' os H (conj Hwf Hp))).
  intros a l ch b evs Hs [Hw _]. split; [eapply step_WF; eauto|eapply step_nothing_left_blocked; eauto].
Qed.

Definition reach (k : nat) (sp : bool) (u : N) (ta tb : Z) (ls : list (label * list N)) : sys :=
  fst (run (init k sp u ta tb) ls).

Lemma reach_WF k sp u ta tb ls : WF (reach k sp u ta tb ls).
Proof. unfold reach. destruct (run _ ls) as [y os] eqn:Er. exact (run_inv WF step_WF ls _ _ _ Er (init_WF _ _ _ _ _)). Qed.

(* a closed session, in any WF state *)
Lemma closed_session_torn_down y s :
  WF y -> se_closed (sess y s) = true ->
  (forall sid st, lookup sid (se_objs (sess y s)) = Some st -> st_closed st = true /\ pclosed (st_rb st) = true) /\
  (forall sid n, try_read y s sid n <> None) /\
  open_stream y s = (y, [ERet R_BROKEN_SESSION 0 []]) /\
  (forall sid data ch, exists rc, stream_write y s sid data ch = (y, [ERet rc 0 []]) /\ rc <> R_OK).
Proof.
  intros Hwf Hcl. destruct (WF_sess y s Hwf) as (Ho & Hc & _).
  assert (Hst : forall sid st, lookup sid (se_objs (sess y s)) = Some st -> st_closed st = true /\ pclosed (st_rb st) = true).
  { intros sid st El. specialize (Hc Hcl _ _ El). destruct (Ho _ _ El) as (H1 & _ & _). split; [exact Hc|congruence]. }
  split; [exact Hst|split; [|split]].
  - intros sid n H. pose proof (try_read_None_open _ _ _ _ Hwf H). congruence.
  - unfold open_stream. now rewrite Hcl.
  - intros sid data ch. unfold stream_write. destruct (lookup sid (se_objs (sess y s))) as [st|] eqn:El.
    + rewrite (proj1 (Hst _ _ El)). exists R_BROKEN_STREAM. split; [reflexivity|discriminate].
    + exists R_NOSTREAM. split; [reflexivity|discriminate].
Qed.

(* one tick, from any state *)
Lemma tick_closes_only_idle y d ch s :
  se_closed (sess y s) = false -> se_closed (sess (fst (step y (LTick d) ch)) s) = true -> se_count (sess y s) = 0.
Proof.
  intros Hop Hcl. unfold step in Hcl.
  destruct (step_core y (LTick d) ch) as [y1 e1] eqn:Ec.
  destruct (resolve (sy_pend y1) y1) as [[y2 ps] e2] eqn:Er. cbn in Hcl. rewrite sess_set_pend in Hcl.
  rewrite (resolve_closed _ _ _ _ _ s Er) in Hcl.
  rewrite step_core_tick in Ec.
  destruct (fire_timers 64 (set_now y (sy_now y + d)%Z) SA ch) as [[ya cha] ea] eqn:Ea.
  destruct (fire_timers 64 ya SB cha) as [[yb chb] eb] eqn:Eb. injection Ec as <- <-.
  destruct s.
  - pose proof (fire_timers_other _ _ _ _ _ _ _ Eb) as Hoth. cbn [other] in Hoth. rewrite Hoth in Hcl.
    pose proof (fire_timers_idle _ _ _ _ _ _ _ Ea) as Hidle. rewrite !sess_set_now in Hidle. apply Hidle; assumption.
  - pose proof (fire_timers_other _ _ _ _ _ _ _ Ea) as Hoth. cbn [other] in Hoth. rewrite sess_set_now in Hoth.
    pose proof (fire_timers_idle _ _ _ _ _ _ _ Eb) as Hidle. rewrite Hoth in Hidle. apply Hidle; assumption.
Qed.

(* non-vacuity: a concrete run in which a connection fails while a read is blocked *)
Example teardown_example :
  let y := reach 2 false 331 30000000000 45000000000
             [(LOpen SA, []); (LWrite SA 1 [7; 8; 9], [1]); (LDeliver SB 1, []); (LRead SB 1 2, []);
              (LRead SB 1 5, []); (LRead SB 1 5, []); (LFail 0, [])] in
  se_closed (sess y SA) = true /\ se_closed (sess y SB) = true /\ sy_pend y = [] /\
  map c_clA (sy_conns y) = [true; true] /\ map c_clB (sy_conns y) = [true; true].
Proof. vm_compute. repeat split. Qed.
