(* C18 - User database and admin API act as a keyed store and never crash the server.
   Only the property theorems, each closed by a lemma of Proofs/UserDB.v or, for a concrete
   history, by evaluation.  Model: Model/UserDB.v
   (localmanager.go, api_router.go, userpanel.go GetUser, qos.go MakeValve). *)
From Coq Require Import ZArith NArith List Bool.
From Cloak Require Import Model.UserDB Proofs.UserDB.
Import ListNotations.
Local Open Scope Z_scope.

(* i64ToB / int64(u64(..)) and i32ToB / int32(u32(..)) are inverse on the whole int64 / int32
   range (sign and extremes included). *)
Theorem C18_codec :
  (forall v, - 2 ^ 63 <= v < 2 ^ 63 -> int64_of_be (be_of_int64 v) = v) /\
  (forall v, - 2 ^ 31 <= v < 2 ^ 31 -> int32_of_be (be_of_int32 v) = v).
Proof. exact (conj codec64 codec32). Qed.
Print Assumptions C18_codec.

(* For EVERY history (requests of all five kinds over arbitrary UIDs - accepted and rejected -,
   close/reopen, usage uploads, authentication queries), started in any well-formed store, the
   real handlers (decoders as they are now) answer exactly what the abstract finite map
   UID -> six integers answers, and the final store decodes to the final abstract map. *)
Theorem C18_refines_map :
  forall (now : Z) (ops : list op) (s : store),
  store_wf s -> Forall op_ok ops ->
  exists s', run true now s ops = Ok (s', snd (a_run now (abs_store s) ops))
          /\ abs_store s' = fst (a_run now (abs_store s) ops).
Proof. intros now ops s Hwf Hok. destruct (run_sim now ops s Hwf Hok) as (s' & E1 & E2 & _). eauto. Qed.
Print Assumptions C18_refines_map.

(* The hypotheses are met: the empty database, and a history with values in the JSON ranges. *)
Example C18_refines_map_hyps :
  store_wf [] /\ Forall op_ok (wit_good ++ wit_neg_rate ++ [OReq RqList; OReopen; OUpload [mkUpd wit_uid16 7 8]]).
Proof. exact example_refines_hyps. Qed.

(* What the abstract side is: lookup after update/delete, an accepted update merges exactly the
   mentioned fields (a new record starts all-zero), a request that is not accepted (status
   outside 2xx) changes nothing, an accepted delete removes the user, the listing has distinct
   keys and contains exactly the map. *)
Theorem C18_spec_is_map :
  (forall (u u' : uid) (v : vals) (m : astore),
      lookup u (put u' v m) = if uid_eqb u u' then Some v else lookup u m) /\
  (forall (u u' : uid) (m : astore),
      lookup u (remove u' m) = if uid_eqb u u' then None else lookup u m) /\
  (forall m u w, u <> [] ->
      a_post m (PUid u) (BJson u w) =
      (put u (merge w (match lookup u m with Some v => v | None => vals_zero end)) m, RsStatus 201)) /\
  (forall w v, merge w v = mkV (ov (w_cap w) (v_cap v)) (ov (w_uprate w) (v_uprate v))
      (ov (w_downrate w) (v_downrate v)) (ov (w_upcredit w) (v_upcredit v))
      (ov (w_downcredit w) (v_downcredit v)) (ov (w_expiry w) (v_expiry v))) /\
  (forall m p b, accepted (snd (a_post m p b)) = false -> fst (a_post m p b) = m) /\
  (forall m p, accepted (snd (a_delete m p)) = false -> fst (a_delete m p) = m) /\
  (forall m u, accepted (snd (a_delete m (PUid u))) = true -> lookup u (fst (a_delete m (PUid u))) = None) /\
  (forall now ops, let m := fst (a_run now [] ops) in
      NoDup (keys m) /\ forall u v, In (u, v) m <-> lookup u m = Some v).
Proof. exact (conj lookup_put (conj lookup_remove (conj a_post_merges (conj (fun w v => eq_refl)
  (conj a_post_rejected (conj a_delete_rejected (conj a_delete_accepted a_run_listing))))))). Qed.
Print Assumptions C18_spec_is_map.

(* Close + reopen at arbitrary points of any history changes no other observation and not the
   final store.  TRUSTED: [reopen] is the identity in the model - bbolt's durability is not
   modelled; the correspondence check closes and reopens the real file. *)
Theorem C18_persist :
  (forall (s : store), reopen s = s) /\
  forall fx now ops s,
  run fx now s (drop_reopen ops) =
  match run fx now s ops with
  | Ok q => Ok (fst q, drop_obreopen (snd q))
  | Panic => Panic
  end.
Proof. exact (conj (fun s => eq_refl) persist). Qed.
Print Assumptions C18_persist.

(* No store at all - hence no record the API can create - makes AuthenticateUser,
   AuthoriseNewSession, GetUserInfo, ListAllUsers or UploadStatus panic, no history panics,
   and the owner of any record can connect (GetUser -> MakeValve -> GetSession) and have usage
   uploaded without a panic: the code as it is now (decoders since cd5140b, GetUser since 638655d). *)
Theorem C18_no_panic :
  forall now s,
  ((forall u, authenticate true now s u <> Panic) /\
   (forall u n, authorise true now s u n <> Panic) /\
   (forall p, get_user true s p <> Panic) /\
   list_all true s <> Panic /\
   (forall l, upload true now s l <> Panic)) /\
  (forall ops, exists q, run true now s ops = Ok q) /\
  ((forall u, exists c, connect true true now s u = Ok c) /\
   (forall u rx tx, exists q, connect_use true true now s u rx tx = Ok q)).
Proof. exact (fun now s => conj (no_panic_fixed now s) (conj (fun ops => run_total now ops s)
  (conj (connect_guarded_total now s) (connect_use_total now s)))). Qed.
Print Assumptions C18_no_panic.

(* The same in the words of the property: after any history, the owner of any record connects
   without a panic. *)
Theorem C18_no_panic_on_connect :
  forall now ops u s os, Forall op_ok ops -> run true now [] ops = Ok (s, os) ->
    connect true true now s u <> Panic.
Proof. intros now ops u s os _ _. apply total_no_panic, connect_guarded_total. Qed.
Print Assumptions C18_no_panic_on_connect.

(* What the guard costs: a record is refused with ErrBadRate exactly when it would have been
   authenticated with a rate that is not positive; every other outcome is as before the fix. *)
Theorem C18_badrate_exact :
  (forall now s u,
     connect true true now s u = Ok (CnAuthErr ErrBadRate) <->
     exists up down, authenticate true now s u = Ok (AuthOk up down) /\ (up <= 0 \/ down <= 0)) /\
  (forall now s u c, connect false true now s u = Ok c -> connect true true now s u = Ok c).
Proof. exact (conj (connect_badrate_iff true) connect_guard_agree). Qed.
Print Assumptions C18_badrate_exact.

(* F7 (repaired in /repo by cd5140b): with the decoder in its earlier shape a record created
   with only UpCredit panics every reader, and a history that lists afterwards panics. *)
Theorem C18_refuted_prefix_nil :
  exists s os, run false 0 [] wit_partial = Ok (s, os)
    /\ authenticate false 0 s [1%N] = Panic
    /\ authorise false 0 s (pad16 [1%N]) 0 = Ok (Some ErrUserNotFound)
    /\ get_user false s (PUid [1%N]) = Panic
    /\ list_all false s = Panic
    /\ upload false 0 s [mkUpd [1%N] 0 0] = Panic
    /\ run false 0 [] (wit_partial ++ [OReq RqList]) = Panic.
Proof. eexists. eexists. split; [vm_compute; reflexivity|]. repeat split; vm_compute; reflexivity. Qed.
Print Assumptions C18_refuted_prefix_nil.
Theorem C18_refuted_prefix_nil_authorise :
  exists s os, run false 0 [] [OReq (RqPost (PUid wit_uid16) (BJson wit_uid16 (mkW None None None (Some 5) None None)))] = Ok (s, os)
    /\ authorise false 0 s wit_uid16 0 = Panic.
Proof. eexists. eexists. split; [vm_compute; reflexivity|]. vm_compute; reflexivity. Qed.
Print Assumptions C18_refuted_prefix_nil_authorise.

(* F8 (repaired in /repo by 638655d): with GetUser in its earlier shape (no guard) the same
   statement is FALSE - a user created with credits and expiry only has rates 0, passes
   AuthenticateUser and reaches ratelimit.NewBucketWithRate(0, 0), which panics. *)
Theorem C18_refuted_prefix_makevalve :
  ~ (forall now ops u s os, Forall op_ok ops -> run true now [] ops = Ok (s, os) ->
       connect false true now s u <> Panic).
Proof. exact makevalve_refuted. Qed.
Print Assumptions C18_refuted_prefix_makevalve.
Theorem C18_refuted_prefix_makevalve_negative :
  exists s os, run true 50 [] wit_neg_rate = Ok (s, os) /\ authenticate true 50 s wit_uid16 = Ok (AuthOk 10 (-1))
    /\ connect false true 50 s wit_uid16 = Panic /\ connect true true 50 s wit_uid16 = Ok (CnAuthErr ErrBadRate).
Proof. eexists. eexists. split; [vm_compute; reflexivity|]. repeat split; vm_compute; reflexivity. Qed.
Print Assumptions C18_refuted_prefix_makevalve_negative.

(* What did hold before the fix, exactly: the unguarded connect path panics if and only if the
   record passes AuthenticateUser with a rate that is not positive. *)
Theorem C18_prefix_makevalve_exact :
  forall now s u,
  connect false true now s u = Panic <->
  exists up down, authenticate true now s u = Ok (AuthOk up down) /\ (up <= 0 \/ down <= 0).
Proof. exact (connect_badrate_iff false). Qed.
Print Assumptions C18_prefix_makevalve_exact.
Theorem C18_partial_no_panic_positive_rates :
  forall now s u,
  (forall up down, authenticate true now s u = Ok (AuthOk up down) -> 0 < up /\ 0 < down) ->
  connect false true now s u <> Panic.
Proof. exact partial_no_panic_positive_rates. Qed.
Print Assumptions C18_partial_no_panic_positive_rates.
Example C18_partial_hyps :
  exists s os, run true 50 [] wit_good = Ok (s, os)
    /\ (forall up down, authenticate true 50 s wit_uid16 = Ok (AuthOk up down) -> 0 < up /\ 0 < down)
    /\ connect false true 50 s wit_uid16 = Ok (CnOk 100 1000).
Proof. exact example_positive_rates. Qed.

(* Observation O5 (not a violation): SessionsCap -1 is shown as -1 and enforced as 2^32-1. *)
Example C18_O5_negative_cap :
  let ops := [OReq (RqPost (PUid wit_uid16) (BJson wit_uid16 (mkW (Some (-1)) (Some 1) (Some 1) (Some 1) (Some 1) (Some 100))))] in
  exists s os, run true 50 [] ops = Ok (s, os)
    /\ get_user true s (PUid wit_uid16) = Ok (RsUser wit_uid16 (mkV (-1) 1 1 1 1 100))
    /\ authorise true 50 s wit_uid16 4000000000 = Ok None.
Proof. eexists. eexists. split; [vm_compute; reflexivity|]. repeat split; vm_compute; reflexivity. Qed.
