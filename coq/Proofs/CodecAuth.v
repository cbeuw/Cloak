(* C11: what deobfuscate authenticates.  (1) concrete counter-examples with the real ciphers:
   header bytes 12 (closing) and 13 (extra length) are outside the AEAD (nonce = header[:12]);
   (2) under an idealised AEAD (Section hypotheses) nothing else escapes; (3) a rejected
   message leaves the session state untouched. *)
From Coq Require Import NArith ZArith List Bool Lia Arith PeanoNat ZifyN ZifyNat ZifyBool.
From Cloak Require Import Gen.Consts Model.Crypto.CBytes Model.Crypto.Salsa20
  Model.Codec Proofs.ListFacts Proofs.AEAD Proofs.Crypto Proofs.Codec.
Import ListNotations.
Local Open Scope Z_scope.

(* ---- the property as stated, and its refutation ----------------------------------------- *)
Definition honest (m : method) : list N :=
  match encode m ex_key ex_frame 3%N (ex_rnd m) with Some x => x | None => [] end.

(* flipping bit 0 of byte 12 of an honest message: accepted, same stream and sequence number,
   same payload, closing flag changed from 1 to 0 - for each of the three AEAD methods *)
Lemma closing_flip_accepted : forall m, m <> Plain ->
  decode m ex_key (flip_bit (honest m) 12 0) = Ok (mkFrame (f_sid ex_frame) (f_seq ex_frame) 0 (f_payload ex_frame)).
Proof. intros [] H; try congruence; vm_compute; reflexivity. Qed.

(* flipping bits of byte 13 (extra length 19 = 3 padding + 16 tag): bit 0 -> 18: the payload
   grows by one padding byte; bit 2 -> 23: the payload shrinks to one byte; bit 4 -> 3:
   the payload is followed by the padding and 13 bytes of the tag *)
Lemma extralen_flip_accepted :
  decode ChaCha20Poly1305 ex_key (flip_bit (honest ChaCha20Poly1305) 13 0) =
    Ok (mkFrame (f_sid ex_frame) (f_seq ex_frame) 1 (f_payload ex_frame ++ [200%N])) /\
  decode ChaCha20Poly1305 ex_key (flip_bit (honest ChaCha20Poly1305) 13 2) =
    Ok (mkFrame (f_sid ex_frame) (f_seq ex_frame) 1 [104%N]) /\
  (exists p, decode AES128GCM ex_key (flip_bit (honest AES128GCM) 13 4) =
    Ok (mkFrame (f_sid ex_frame) (f_seq ex_frame) 1 p) /\ length p = 21%nat /\
    firstn 8 p = f_payload ex_frame ++ [200; 201; 202]%N).
Proof.
  split; [vm_compute; reflexivity|]. split; [vm_compute; reflexivity|].
  eexists. split; [vm_compute; reflexivity|]. split; reflexivity.
Qed.

(* every other header position, and the body, is protected in this instance: all other
   single-bit flips of the honest ChaCha20-Poly1305 message are rejected *)
Fixpoint count_accepted_flips (m : method) (msg : list N) (positions : list nat) : list (nat * N) :=
  match positions with
  | [] => []
  | i :: rest =>
      filter (fun ib => match decode m ex_key (flip_bit msg (fst ib) (snd ib)) with Ok _ => true | _ => false end)
             (map (fun b => (i, b)) [0;1;2;3;4;5;6;7]%N) ++ count_accepted_flips m msg rest
  end.
Lemma accepted_flips_of_instance :
  count_accepted_flips ChaCha20Poly1305 (honest ChaCha20Poly1305) (seq 0 38) =
  map (fun b => (12%nat, b)) [0;1;2;3;4;5;6;7]%N ++ map (fun b => (13%nat, b)) [0;1;2;4]%N.
Proof. vm_compute. reflexivity. Qed.

(* "any change to its stream id, sequence number, closing flag, length fields, payload or tag
   causes it to be dropped": every single-bit modification of an honest message is rejected *)
Theorem full_refuted : ~
  forall (m : method) (key : list N) (f : frame) (padLen : N) (rnd msg : list N) (i : nat) (b : N),
    m <> Plain ->
    (f_sid f < 2 ^ 32)%N -> (f_seq f < 2 ^ 64)%N -> (f_closing f < 256)%N ->
    Z.of_N padLen <= mux_maxExtraLen - method_tag_len m ->
    encode m key f padLen rnd = Some msg ->
    (i < length msg)%nat -> (b < 8)%N ->
    forall f', decode m key (flip_bit msg i b) <> Ok f'.
Proof.
  intros H.
  assert (E : encode ChaCha20Poly1305 ex_key ex_frame 3%N (ex_rnd ChaCha20Poly1305) = Some (honest ChaCha20Poly1305) /\
              (12 < length (honest ChaCha20Poly1305))%nat) by (vm_compute; split; [reflexivity | lia]).
  refine (H ChaCha20Poly1305 ex_key ex_frame 3%N _ _ 12%nat 0%N _ _ _ _ _ (proj1 E) (proj2 E) _ _
            (closing_flip_accepted _ _)); try discriminate; reflexivity.
Qed.

(* ---- Salsa20 on the header is a bytewise xor with a key stream that depends only on the
        key and the nonce (both 14-byte inputs need exactly one block) ------------------- *)
Lemma firstn_xorl : forall k a b, firstn k (xorl a b) = xorl (firstn k a) (firstn k b).
Proof.
  induction k as [|k IH]; intros [|x a] [|y b]; cbn [firstn xorl]; try reflexivity.
  now rewrite IH.
Qed.

Lemma salsa20_xor_header : forall key nonce d, length d = 14%nat ->
  salsa20_xor key nonce d = xorl d (salsa20_block key nonce 0).
Proof.
  intros key nonce d Hd. unfold salsa20_xor, ctr_xor. rewrite Hd.
  change (blocks_for 64 14) with 1%nat. cbn [stream_blocks]. now rewrite app_nil_r.
Qed.

Lemma app_inj_length : forall (A : Type) (a a' b b' : list A),
  length b = length b' -> a ++ b = a' ++ b' -> a = a' /\ b = b'.
Proof.
  intros A a. induction a as [|x a IH]; intros [|x' a'] b b' Hl He; cbn [app] in *.
  - now split.
  - exfalso. subst b. cbn [length] in Hl. rewrite app_length in Hl. lia.
  - exfalso. subst b'. cbn [length] in Hl. rewrite app_length in Hl. lia.
  - injection He as -> He. destruct (IH a' b b' Hl He) as [-> ->]. now split.
Qed.

(* ---- under an ideal AEAD exactly header bytes 12-13 escape authentication ---------------- *)
Section IdealAEAD.
  Variable a : aead.
  Hypothesis a_ok : aead_ok a.
  Hypothesis a_nonce12 : a_nonce_size a = 12%nat.
  (* whatever opens under a nonce is literally the output of Seal under that nonce ... *)
  Hypothesis ideal_aead : forall n c p, length n = 12%nat -> a_open a n c = Some p -> c = a_seal a n p.
  (* ... and Seal outputs determine nonce and plaintext *)
  Hypothesis ideal_binding : forall n n' p p', length n = 12%nat -> length n' = 12%nat ->
    a_seal a n p = a_seal a n' p' -> n = n' /\ p = p'.

  (* what an accepted message looks like: its body was sealed under the first 12 bytes of its
     decrypted header, which spell the decoded stream id and sequence number *)
  Lemma accepted_inv : forall key msg f',
    decode_with (Some a) key msg = Ok f' ->
    let n := firstn 12 (salsa20_xor key (skipn (length msg - 8) msg) (firstn 14 msg)) in
    length n = 12%nat /\ exists pt k,
      skipn 14 msg = a_seal a n pt /\ f_sid f' = be_num (firstn 4 n) /\ f_seq f' = be_num (skipn 4 n) /\
      f_payload f' = firstn k (pt ++ skipn (length pt) (skipn 14 msg)).
  Proof.
    (* only a_nonce12 and ideal_aead may enter the proof: C11_accepted_is_sealed has no other premise to give *)
    clear ideal_binding a_ok.
    intros key msg f' H. cbv zeta.
    rewrite decode_with_eq in H by (unfold nonce_fits; rewrite a_nonce12; discriminate). cbv zeta in H.
    destruct (Z.ltb_spec (zlen msg) 22) as [|Hl]; [discriminate|]. destruct (_ || _); [discriminate|].
    rewrite a_nonce12 in H. set (h := salsa20_xor key _ _) in *.
    assert (Hn : length (firstn 12 h) = 12%nat).
    { unfold h. rewrite firstn_length, salsa20_xor_length, firstn_length. unfold zlen in Hl. lia. }
    destruct (a_open a (firstn 12 h) (skipn 14 msg)) as [pt|] eqn:E; [|discriminate]. injection H as <-.
    split; [exact Hn|]. exists pt. eexists. split; [apply ideal_aead; assumption|].
    split; [|split; [|reflexivity]].
    - rewrite firstn_firstn. reflexivity.
    - exact (f_equal be_num (firstn_skipn_comm 8 4 h)).
  Qed.

  (* an honest message whose header bytes were tampered with (body untouched): if it is still
     accepted, then stream id and sequence number are the honest ones, the first 12 message
     bytes are unchanged, and the payload is a prefix of payload ++ padding ++ tag *)
  Theorem header_tamper : forall key f padLen rnd msg msg' f',
    (f_sid f < 2 ^ 32)%N -> (f_seq f < 2 ^ 64)%N ->
    encode_with (Some a) key f padLen rnd = Some msg ->
    length msg' = length msg -> skipn 14 msg' = skipn 14 msg ->
    decode_with (Some a) key msg' = Ok f' ->
    f_sid f' = f_sid f /\ f_seq f' = f_seq f /\ firstn 12 msg' = firstn 12 msg /\
    exists k, f_payload f' =
      firstn k (f_payload f ++ firstn (N.to_nat padLen) rnd ++
                skipn (length (f_payload f) + N.to_nat padLen) (skipn 14 msg)).
  Proof.
    intros key f padLen rnd msg msg' f' Hsid Hseq Henc Hlen Hbody Hdec.
    destruct (encode_with_some_inv _ _ _ _ _ _ Henc) as [Hne Hrnd].
    rewrite encode_with_layout in Henc by assumption. injection Henc as <-.
    unfold v2_message in *. cbn [tag_len_of v2_body] in *.
    set (pad := firstn (N.to_nat padLen) rnd) in *.
    set (header := header_bytes (f_sid f) (f_seq f) (f_closing f) (zlen pad + Z.of_nat (a_overhead a))) in *.
    set (body := a_seal a (firstn (a_nonce_size a) header) (f_payload f ++ pad)) in *.
    set (H := salsa20_xor key (last8 body) header) in *.
    assert (Hhl : length header = 14%nat) by apply header_bytes_length.
    assert (HH : length H = 14%nat) by (unfold H; now rewrite salsa20_xor_length).
    destruct a_ok as (_ & Hslen & _ & Hov). unfold mux_salsa20NonceSize in Hov.
    assert (Hbl : (8 <= length body)%nat) by (unfold body; rewrite Hslen; lia).
    destruct (message_parts H body HH Hbl) as (P1 & P2 & _). rewrite P2 in *.
    (* the tampered message is a 14-byte header H2 in front of the same body: same Salsa20 nonce *)
    assert (E : msg' = firstn 14 msg' ++ body) by (rewrite <- Hbody; symmetry; apply firstn_skipn).
    assert (HH2 : length (firstn 14 msg') = 14%nat) by (rewrite firstn_length, Hlen, app_length; lia).
    revert E HH2. generalize (firstn 14 msg'). intros H2 -> HH2.
    destruct (message_parts H2 body HH2 Hbl) as (Q1 & Q2 & Q3).
    destruct (accepted_inv _ _ _ Hdec) as (Hn & pt & k & Hop & -> & -> & Hp). rewrite Q1, Q2, Q3 in *.
    set (h := salsa20_xor key (last8 body) H2) in *.
    unfold body in Hop at 1. apply ideal_binding in Hop; [|rewrite firstn_length; lia | exact Hn].
    destruct Hop as [Hnn <-]. rewrite a_nonce12 in Hnn.
    (* so the first 12 bytes of the decrypted header are those of the honest header *)
    destruct (header_fields (f_sid f) (f_seq f) (f_closing f) (zlen pad + Z.of_nat (a_overhead a))) as (F1 & F2 & _).
    fold header in F1, F2.
    split; [|split; [|split]].
    - rewrite <- Hnn, firstn_firstn. cbn [Nat.min]. rewrite F1. now apply be_num_be_bytes.
    - rewrite <- Hnn. change 12%nat with (4 + 8)%nat. rewrite <- firstn_skipn_comm, F2. now apply be_num_be_bytes.
    - (* undo the bytewise xor *)
      rewrite !firstn_app_le by lia.
      replace H2 with (salsa20_xor key (last8 body) h) by (unfold h; apply salsa20_xor_involutive).
      assert (Hh : length h = 14%nat) by (unfold h; now rewrite salsa20_xor_length).
      unfold H. rewrite !salsa20_xor_header, !firstn_xorl, Hnn by assumption. reflexivity.
    - exists k. rewrite Hp. f_equal. rewrite <- app_assoc. do 2 f_equal.
      rewrite app_length. unfold pad. f_equal.
      rewrite firstn_length. unfold zlen in Hrnd. cbn [tag_len_of] in Hrnd. lia.
  Qed.
End IdealAEAD.

(* the hypotheses of the section are satisfiable: the toy scheme of Model/Codec.v *)
Lemma toy_tag_length : forall n, length (firstn 12 (n ++ zeros 12) ++ zeros 4) = 16%nat.
Proof. intros. rewrite app_length, force_length, zeros_length. reflexivity. Qed.

Example ideal_section_inhabited :
  aead_ok toy_aead /\ a_nonce_size toy_aead = 12%nat /\
  (forall n c p, length n = 12%nat -> a_open toy_aead n c = Some p -> c = a_seal toy_aead n p) /\
  (forall n n' p p', length n = 12%nat -> length n' = 12%nat ->
     a_seal toy_aead n p = a_seal toy_aead n' p' -> n = n' /\ p = p').
Proof.
  split; [|split; [reflexivity|split]].
  - apply aead_ok_16_12; intros n p.
    + rewrite app_length, toy_tag_length.
      destruct (Nat.ltb_spec (length p + 16) 16); [lia|].
      rewrite skipn_app_exact, bytes_eqb_refl, firstn_app_exact by lia. reflexivity.
    + now rewrite app_length, toy_tag_length.
  - intros n c p _. cbn [a_open a_seal toy_aead].
    destruct (Nat.ltb_spec (length c) 16); [discriminate|].
    destruct (bytes_eqb _ _) eqn:E; [|discriminate].
    intros Hs. injection Hs as <-. apply bytes_eqb_eq in E. rewrite <- E. now rewrite firstn_skipn.
  - intros n n' p p' Hn Hn' H. cbn [a_seal toy_aead] in H.
    apply app_inj_length in H; [|now rewrite !toy_tag_length].
    destruct H as [-> H]. split; [|reflexivity].
    apply app_inj_length in H; [|reflexivity]. destruct H as [H _].
    now rewrite !firstn_app_exact in H by assumption.
Qed.

(* ---- dropped messages have no effect ------------------------------------------------------ *)
Lemma recv_rejected : forall (S O : Type) (handle : S -> frame -> S * O) c key st data,
  nonce_fits c ->
  accepted c key data = false ->
  exists e, recv_data_from_remote handle c key st data = (st, RecvErr e).
Proof.
  intros S O handle c key st data Hns Hacc. unfold recv_data_from_remote, accepted in *.
  pose proof (decode_with_no_panic c key data Hns) as Hnp.
  destruct (decode_with c key data) as [f|e|]; [discriminate | now exists e | congruence].
Qed.

(* feeding a list of received messages: the rejected ones can be deleted from the list without
   changing the resulting session state; and the loop never crashes in the decoder *)
Theorem drop_no_effect : forall (S O : Type) (handle : S -> frame -> S * O) c key datas st,
  nonce_fits c ->
  recv_all handle c key st datas = recv_all handle c key st (filter (accepted c key) datas) /\
  recv_all handle c key st datas <> None.
Proof.
  intros S O handle c key datas. induction datas as [|d rest IH]; intros st Hns.
  - split; [reflexivity | discriminate].
  - cbn [filter]. destruct (accepted c key d) eqn:Ha.
    + cbn [recv_all]. unfold recv_data_from_remote. unfold accepted in Ha.
      destruct (decode_with c key d) as [f| |]; try discriminate.
      destruct (handle st f) as [st' o]. apply IH, Hns.
    + cbn [recv_all]. destruct (recv_rejected S O handle c key st d Hns Ha) as [e ->]. apply IH, Hns.
Qed.
