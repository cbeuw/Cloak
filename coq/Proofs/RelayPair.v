(* Proofs about Model/RelayPair.v: the two relay goroutines of one stream, over every schedule. *)
From Coq Require Import NArith List Bool Lia.
From Cloak Require Import Model.RelayPair.
Import ListNotations.

Lemma run_inv (early : bool) (Inv : rstate -> Prop) :
  (forall r t r', Inv r -> step early r t = Some r' -> Inv r') ->
  forall sched r, Inv r -> Inv (run early r sched).
Proof.
  intros Hstep. induction sched as [|t sched IH]; intros r Hr; cbn [run]; [exact Hr|].
  destruct (step early r t) as [r'|] eqn:E; [apply IH; exact (Hstep r t r' Hr E)|apply IH; exact Hr].
Qed.

(* [step_cases E]: the state as its ten fields, the step function unfolded in E : step e r t = Some r'.
   [step_result E], once the tests in E are decided: no step, or r' is the record the step builds, its fields
   read off.  [by_hyps]: the conjuncts of an invariant that hold by computation or by a hypothesis. *)
Ltac step_cases H :=
  match type of H with step ?e ?r ?t = Some ?r' =>
    destruct r as [si se sc so li le lc lo pd pu]; destruct t;
    unfold step, stream_is_closed, set_down, set_up, close_stream, close_local in H;
    cbn [pc_down pc_up s_in s_end s_closed s_out l_in l_eof l_closed l_out] in *
  end.
Ltac step_result E :=
  first [discriminate E
        | injection E as <-; cbn [pc_down pc_up s_in s_end s_closed s_out l_in l_eof l_closed l_out] in *].
Ltac by_hyps := repeat split; intros; try discriminate; try congruence; eauto.

(* Safety in EVERY environment and for every schedule: the bytes written to the local connection are
   a prefix of what the stream delivered, and the frames sent up the stream are, in order, an initial
   segment of what the local connection's reads returned. *)
Definition SafeInv (chunks lin : list (list N)) (r : rstate) : Prop :=
  (exists tail, concat chunks = l_out r ++ tail) /\
  (pc_down r = Run -> concat chunks = l_out r ++ concat (s_in r)) /\
  (exists rest, lin = s_out r ++ rest) /\
  (pc_up r = Run -> lin = s_out r ++ l_in r).

(* A step that moves data takes the chunk just read from the head of s_in (l_in) and appends it to l_out
   (s_out), so "written ++ still to come" is unchanged: the two `rewrite app_assoc` below.  Every other step
   leaves both sides alone. *)
Lemma safe_step chunks lin : forall r t r', SafeInv chunks lin r -> step false r t = Some r' -> SafeInv chunks lin r'.
Proof.
  intros r t r' (H1 & H2 & H3 & H4) E. unfold SafeInv; step_cases E.
  - destruct pd.
    + specialize (H2 eq_refl). destruct si as [|c rest].
      * destruct (sc || se); step_result E; by_hyps.
      * destruct lc; step_result E; [by_hyps|].
        cbn [concat] in H2. rewrite app_assoc in H2. by_hyps.
    + step_result E; by_hyps.
    + step_result E; by_hyps.
    + discriminate.
  - destruct pu.
    + specialize (H4 eq_refl). cbn [andb] in E. destruct lc; [step_result E; by_hyps|].
      destruct li as [|c rest]; [destruct le; step_result E; by_hyps|].
      destruct (sc || se); step_result E; [by_hyps|].
      change (c :: rest) with ([c] ++ rest) in H4. rewrite app_assoc in H4. by_hyps.
    + step_result E; by_hyps.
    + step_result E; by_hyps.
    + discriminate.
Qed.

Lemma relay_pair_safe : forall chunks send lin leof sched,
  let r := run false (init chunks send lin leof) sched in
  (exists tail, concat chunks = l_out r ++ tail) /\ (exists rest, lin = s_out r ++ rest).
Proof.
  intros chunks send lin leof sched r.
  assert (H : SafeInv chunks lin r).
  { apply run_inv; [apply safe_step|]. unfold SafeInv, init; cbn. repeat split; eauto. }
  destruct H as (H1 & _ & H3 & _). split; assumption.
Qed.

(* The peer wrote B and closed; the local peer (the proxy server, or the proxy client) sends nothing
   and keeps its connection open.  Then, for every schedule: the local connection is closed by the
   relay only after ALL of B has been written to it; nothing is sent up the stream; and the pair never
   gets stuck before both goroutines have finished. *)
Definition QuietInv (chunks : list (list N)) (r : rstate) : Prop :=
  s_end r = true /\ l_in r = [] /\ l_eof r = false /\ s_out r = [] /\
  concat chunks = l_out r ++ concat (s_in r) /\
  (pc_down r = Run -> l_closed r = false /\ pc_up r = Run) /\
  (pc_down r <> Run -> s_in r = []) /\
  (pc_down r = Done -> l_closed r = true).

Lemma quiet_step chunks : forall r t r', QuietInv chunks r -> step false r t = Some r' -> QuietInv chunks r'.
Proof.
  intros r t r' (Q1 & Q2 & Q3 & Q4 & Q5 & Q6 & Q7 & Q9) E. unfold QuietInv; step_cases E; subst se li le so.
  - destruct pd.
    + destruct (Q6 eq_refl) as [-> ->]. destruct si as [|c rest].
      * rewrite orb_true_r in E. step_result E. by_hyps.
      * cbn [concat] in Q5. rewrite app_assoc in Q5. step_result E. by_hyps.
    + rewrite Q7 in * by discriminate. step_result E. by_hyps.
    + rewrite Q7 in * by discriminate. step_result E. by_hyps.
    + discriminate.
  - (* the up goroutine is blocked until the down goroutine has left its loop *)
    assert (Hpd : pd <> Run) by (intros ->; destruct (Q6 eq_refl) as [-> ->]; discriminate E).
    rewrite (Q7 Hpd) in *. destruct pu; [cbn [andb] in E; destruct lc|..]; step_result E;
      by_hyps.
Qed.

Lemma relay_pair_delivers_all_before_closing : forall chunks sched,
  let r := run false (init chunks true [] false) sched in
  (l_closed r = true -> l_out r = concat chunks) /\
  (exists tail, concat chunks = l_out r ++ tail) /\
  s_out r = [] /\
  (finished r = true \/ exists t r', step false r t = Some r').
Proof.
  intros chunks sched r.
  assert (H : QuietInv chunks r) by (apply run_inv; [apply quiet_step|unfold QuietInv, init; cbn; by_hyps]).
  destruct H as (Q1 & Q2 & Q3 & Q4 & Q5 & Q6 & Q7 & Q9).
  repeat split.
  - intros Hc. rewrite Q7 in Q5 by (intros Hd; destruct (Q6 Hd); congruence). cbn in Q5. rewrite app_nil_r in Q5. symmetry. exact Q5.
  - eexists. exact Q5.
  - exact Q4.
  - destruct r as [si se sc so li le lc lo pd pu]. cbn [pc_down pc_up s_in s_end s_closed s_out l_in l_eof l_closed l_out] in *.
    subst se li le so. unfold finished, step, stream_is_closed; cbn [pc_down pc_up s_in s_end s_closed s_out l_in l_eof l_closed l_out].
    destruct pd.
    + right. exists Down. destruct si as [|c rest]; [rewrite orb_true_r; eauto|]. destruct lc; eauto.
    + right. exists Down. eauto.
    + right. exists Down. eauto.
    + rewrite (Q9 eq_refl). destruct pu; [right; exists Up; cbn; eauto..|left; reflexivity].
Qed.

(* from the initial state with a quiet environment there is a schedule that ends both goroutines: the down
   goroutine until it is done, then the up goroutine; then everything is closed *)
Fixpoint repeat_tid (t : tid) (n : nat) : list tid := match n with O => [] | S k => t :: repeat_tid t k end.

Lemma run_app e r a b : run e r (a ++ b) = run e (run e r a) b.
Proof. revert r; induction a as [|t a IH]; intros r; cbn [app run]; [reflexivity|]. destruct (step e r t); apply IH. Qed.

Lemma down_drains : forall si so lo pu,
  run false (mkR si true false so [] false false lo Run pu) (repeat_tid Down (length si)) =
  mkR [] true false so [] false false (lo ++ concat si) Run pu.
Proof.
  induction si as [|c rest IH]; intros so lo pu; cbn [length repeat_tid run concat].
  - rewrite app_nil_r. reflexivity.
  - unfold step at 1. cbn [pc_down s_in l_closed]. rewrite IH, app_assoc. reflexivity.
Qed.

Lemma relay_pair_can_finish : forall chunks,
  let r := run false (init chunks true [] false) (repeat_tid Down (length chunks + 3) ++ repeat_tid Up 3) in
  finished r = true /\ l_closed r = true /\ s_closed r = true /\ l_out r = concat chunks.
Proof.
  intros chunks r. subst r. unfold init.
  assert (Hsplit : repeat_tid Down (length chunks + 3) = repeat_tid Down (length chunks) ++ repeat_tid Down 3).
  { induction (length chunks) as [|n IH]; cbn [Nat.add repeat_tid app]; [reflexivity|]. f_equal. exact IH. }
  rewrite Hsplit, <- app_assoc, run_app, down_drains. cbn. repeat split; reflexivity.
Qed.

(* What a closed-stream test in front of ReadFrom's read would cost: with `early` the up goroutine
   leaves at once when the peer has already closed, and its deferred closes shut the local connection
   while the down goroutine still holds undelivered bytes. *)
Lemma relay_pair_early_check_refuted :
  exists chunks sched, let r := run true (init chunks true [] false) sched in
    finished r = true /\ l_closed r = true /\ l_out r <> concat chunks.
Proof.
  exists [[1%N; 2%N]], [Up; Up; Up; Down; Down; Down]. cbn. repeat split; discriminate.
Qed.

(* non-vacuity: a schedule that interleaves the two goroutines and still meets the statement *)
Example relay_pair_example :
  let r := run false (init [[1%N]; [2%N; 3%N]] true [] false) [Up; Down; Up; Down; Down; Up; Down; Down; Up; Up; Up] in
  finished r = true /\ l_out r = [1%N; 2%N; 3%N] /\ l_closed r = true /\ s_closed r = true.
Proof. cbn. repeat split; reflexivity. Qed.
