(* Payload accounting: only Stream.Write puts payload-carrying frames on the wire; the frames of
   one Write carry exactly the bytes it reports as accepted. *)
From Coq Require Import NArith ZArith List Bool Lia.
From Coq Require Import ZifyN ZifyBool.
From Cloak Require Import Model.Mux Proofs.MuxBase Proofs.MuxSafety Proofs.MuxView Proofs.MuxWire Proofs.MuxEffect.
Import ListNotations.
Local Open Scope N_scope.

Section Pay.
Variable s : side.
Variable sid : N.
Notation ev_frames := (ev_frames s sid).

Lemma nopay_frames evs : wires (fun fr => w_pay fr = []) evs -> flat_map w_pay (ev_frames evs) = [].
Proof.
  induction 1 as [|e t He Ht IH]; [reflexivity|].
  unfold MuxView.ev_frames in *. cbn [flat_map]. rewrite flat_map_app, IH, app_nil_r.
  destruct e as [x c fr| | |]; try reflexivity. destruct (_ && _); [|reflexivity]. cbn. now rewrite He.
Qed.

(* count reported by the call of the label (the first ERet) *)
Definition ret_n (evs : list ev) : N :=
  fold_right (fun e acc => match e with ERet _ n _ => n | _ => acc end) 0 evs.
Lemma ret_n_wire evs rc n d t : wire_only evs -> ret_n (evs ++ ERet rc n d :: t) = n.
Proof. induction 1 as [|e l He Hl IH]; [reflexivity|]. cbn. destruct e; try contradiction; exact IH. Qed.

Lemma firstn_add {A} (l : list A) a b : firstn (a + b) l = firstn a l ++ firstn b (skipn a l).
Proof. revert l; induction a as [|a IH]; intros l; [reflexivity|]. destruct l; cbn; [now rewrite firstn_nil|]. now rewrite IH. Qed.

Lemma write_loop_n_mono fuel : forall y x sid' data n ch y' ch' evs n' rc,
  write_loop fuel y x sid' data n ch = (y', ch', evs, n', rc) -> n <= n'.
Proof.
  induction fuel as [|fuel IH]; intros y x sid' data n ch y' ch' evs n' rc H; cbn in H.
  - injection H as <- <- <- <- <-. lia.
  - destruct data as [|b data']; [injection H as <- <- <- <- <-; lia|].
    destruct (stream_emit _ _ _ _ _) as [[[y1 ch1] evs1] ok].
    destruct ok; [|injection H as <- <- <- <- <-; lia].
    destruct (write_loop fuel y1 x sid' _ _ ch1) as [[[[y2 ch2] evs2] n2] rc2] eqn:Ew. injection H as <- <- <- <- <-.
    apply IH in Ew. lia.
Qed.

Lemma firstn_chunks {A} (data : list A) : forall u m,
  firstn u data ++ firstn m (skipn u data) = firstn (length (firstn u data) + m) data.
Proof.
  induction data as [|x t IH]; intros u m.
  - now rewrite firstn_nil, skipn_nil, !firstn_nil.
  - destruct u as [|u]; [reflexivity|]. cbn. now rewrite IH.
Qed.

Lemma write_loop_payload_self fuel : forall y data n ch y' ch' evs n' rc q,
  write_loop fuel y s sid data n ch = (y', ch', evs, n', rc) -> WF y ->
  MuxView.sview s sid y = Some (q, 0, false) ->
  flat_map w_pay (ev_frames evs) = firstn (N.to_nat (n' - n)) data.
Proof.
  induction fuel as [|fuel IH]; intros y data n ch y' ch' evs n' rc q H Hwf Hsv; cbn in H.
  - injection H as <- <- <- <- <-. now rewrite N.sub_diag.
  - destruct data as [|b data']; [injection H as <- <- <- <- <-; now rewrite firstn_nil|].
    set (data := b :: data') in *. set (u := N.to_nat (se_unit (sess y s))) in *.
    destruct (stream_emit y s sid (firstn u data) ch) as [[[y1 ch1] evs1] ok] eqn:Ee.
    rewrite (sview_def s sid) in Hsv. destruct (lookup sid (se_objs (sess y s))) as [st|] eqn:El; [|discriminate].
    cbn in Hsv. unfold sv in Hsv. injection Hsv as Hq Hw Hc.
    assert (Hw2 : st_wcl st <> 2) by lia.
    pose proof (stream_emit_WF _ _ _ _ _ _ _ _ _ Ee Hwf) as Hwf1.
    destruct (stream_emit_self s sid _ _ _ _ _ _ _ _ El Ee Hwf Hw2) as [(-> & Hf & Hp & Hs1 & Hr1)|(-> & Hf & Hp & Hs1 & Hr1)].
    + destruct (write_loop fuel y1 s sid _ _ ch1) as [[[[y2 ch2] evs2] n2] rc2] eqn:Ew. injection H as <- <- <- <- <-.
      rewrite Hw, Hc in Hs1.
      pose proof (write_loop_n_mono _ _ _ _ _ _ _ _ _ _ _ _ Ew) as Hmono.
      rewrite (ev_frames_app s sid), flat_map_app, Hf, (IH _ _ _ _ _ _ _ _ _ _ Ew Hwf1 Hs1). cbn [flat_map w_pay]. rewrite app_nil_r.
      rewrite firstn_chunks. f_equal. lia.
    + injection H as <- <- <- <- <-. rewrite Hf, N.sub_diag. reflexivity.
Qed.

Definition step_written (l : label) (evs : list ev) : list N :=
  match l with
  | LWrite x sid' data => if side_eqb x s && (sid' =? sid) then firstn (N.to_nat (ret_n evs)) data else []
  | _ => []
  end.

(* one label: the payload put on the wire for this direction is what the Write reports as accepted *)
Lemma step_payload y l ch y' evs :
  step y l ch = (y', evs) -> WF y ->
  (forall q w, MuxView.sview s sid y = Some (q, w, false) -> w = 0) ->
  flat_map w_pay (ev_frames evs) = step_written l evs.
Proof.
  unfold step. intros H Hwf Hw0.
  destruct (step_core y l ch) as [yc ec] eqn:Ec.
  destruct (resolve (sy_pend yc) yc) as [[yr ps] er] eqn:Er. injection H as <- <-.
  destruct (resolve_effect s sid _ _ _ _ _ Er) as (_ & Hfr & _).
  rewrite (ev_frames_app s sid), Hfr, app_nil_r.
  assert (Hcases : (exists x sid' data, l = LWrite x sid' data) \/ (forall x sid' data, l <> LWrite x sid' data)).
  { destruct l; try (right; intros ? ? ? Hx; discriminate Hx). left. eauto. }
  destruct Hcases as [(x & sid' & data & ->)|Hnw].
  2:{ destruct (step_core_shape (fun fr => w_pay fr = []) (fun _ Hp => Hp) y l ch _ _ Ec) as (evs0 & rc & n & d & -> & Hn).
      { intros x sid' data Hx. exfalso. eapply Hnw; exact Hx. }
      rewrite (ev_frames_app s sid), flat_map_app, (nopay_frames evs0 Hn).
      destruct l; try reflexivity. exfalso. eapply Hnw; reflexivity. }
  rewrite step_core_write in Ec. unfold stream_write in Ec. cbn [step_written].
  destruct (lookup sid' (se_objs (sess y x))) as [st|] eqn:El.
  2:{ injection Ec as <- <-. cbn. destruct (_ && _); reflexivity. }
  destruct (st_closed st) eqn:Ecl.
  { injection Ec as <- <-. cbn. destruct (_ && _); reflexivity. }
  destruct (write_loop _ y x sid' data 0 ch) as [[[[y1 ch1] evs1] n1] rc1] eqn:Ew. injection Ec as <- <-.
  pose proof (write_loop_wire (fun _ => True) _ _ _ _ _ _ _ _ _ _ _ _ Ew (fun _ => I)) as Hwire.
  rewrite <- wire_only_wires in Hwire.
  rewrite <- app_assoc. cbn [app]. rewrite (ret_n_wire _ _ _ _ _ Hwire).
  rewrite (ev_frames_app s sid), flat_map_app. cbn [MuxView.ev_frames flat_map app]. rewrite app_nil_r.
  destruct (side_eqb x s && (sid' =? sid)) eqn:Es.
  - apply andb_prop in Es as [E1 E2]. apply side_eqb_eq in E1. subst x. assert (sid' = sid) by lia. subst sid'.
    assert (Hsv : MuxView.sview s sid y = Some (st_seq st, 0, false)).
    { rewrite (sview_def s sid), El. cbn. unfold sv. rewrite Ecl.
      assert (Hsv0 : MuxView.sview s sid y = Some (st_seq st, st_wcl st, false)) by (rewrite (sview_def s sid), El; cbn; unfold sv; now rewrite Ecl).
      now rewrite (Hw0 _ _ Hsv0). }
    rewrite (write_loop_payload_self _ _ _ _ _ _ _ _ _ _ _ Ew Hwf Hsv). now rewrite N.sub_0_r.
  - destruct (write_loop_other s sid _ _ _ _ _ _ _ _ _ _ _ _ Ew Es) as [_ Hf]. now rewrite Hf.
Qed.

Fixpoint run_written (ls : list (label * list N)) (os : list (list ev)) : list N :=
  match ls, os with
  | (l, _) :: lt, evs :: ot => step_written l evs ++ run_written lt ot
  | _, _ => []
  end.
End Pay.
